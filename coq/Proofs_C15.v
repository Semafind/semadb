(* Proofs_C15.v -- lemmas about the distribution model and the quota state
   machine of Model_C15.v. *)
From Coq Require Import List NArith ZArith Bool Arith Sorted Lia.
From Coq Require Import ZifyBool ZifyN ZifyNat.
From Semadb Require Import ListFacts Model_C15.
Import ListNotations.
Open Scope Z_scope.

Lemma sumZ_app : forall a b, sumZ (a ++ b) = sumZ a + sumZ b.
Proof. induction a as [|x a IH]; intros b; simpl; [reflexivity|rewrite IH; lia]. Qed.

Lemma sumZ_nonneg : forall l, Forall (fun p => 0 <= p) l -> 0 <= sumZ l.
Proof. induction 1 as [|x l Hx _ IH]; simpl; lia. Qed.

Lemma skipn_cons_nth : forall (A : Type) (i : nat) (l : list A) a t d,
  skipn i l = a :: t -> skipn (S i) l = t /\ nth i l d = a /\ (i < length l)%nat.
Proof.
  induction i as [|i IH]; intros [|x l] a t d H; try discriminate H.
  - injection H as -> ->. repeat split. simpl. lia.
  - destruct (IH l a t d H) as (H1 & H2 & H3). repeat split; [exact H1|exact H2|simpl; lia].
Qed.

Section Take.
Variables maxS maxC : Z.

Lemma take_le : forall ps rs rc, (take maxS maxC rs rc ps <= length ps)%nat.
Proof.
  induction ps as [|p ps IH]; intros rs rc; simpl; [lia|].
  destruct ((rs + p >? maxS) || (rc + 1 >? maxC)); [lia|]. specialize (IH (rs + p) (rc + 1)). lia.
Qed.

Lemma take_limits : forall ps rs rc, (0 < take maxS maxC rs rc ps)%nat ->
  rc + Z.of_nat (take maxS maxC rs rc ps) <= maxC /\
  rs + sumZ (firstn (take maxS maxC rs rc ps) ps) <= maxS.
Proof.
  induction ps as [|p ps IH]; intros rs rc H; simpl in *; [lia|].
  destruct ((rs + p >? maxS) || (rc + 1 >? maxC)) eqn:E; [lia|].
  specialize (IH (rs + p) (rc + 1)).
  destruct (take maxS maxC (rs + p) (rc + 1) ps); simpl in *; lia.
Qed.

Lemma take_maximal : forall ps rs rc, (take maxS maxC rs rc ps < length ps)%nat ->
  exists p, nth_error ps (take maxS maxC rs rc ps) = Some p /\
    (rs + sumZ (firstn (take maxS maxC rs rc ps) ps) + p > maxS \/
     rc + Z.of_nat (take maxS maxC rs rc ps) + 1 > maxC).
Proof.
  induction ps as [|p ps IH]; intros rs rc H; simpl in *; [lia|].
  destruct ((rs + p >? maxS) || (rc + 1 >? maxC)) eqn:E.
  - exists p. simpl. split; [reflexivity|lia].
  - destruct (IH (rs + p) (rc + 1)) as (q & Hq & Hn); [lia|].
    exists q. simpl. split; [exact Hq|lia].
Qed.

Lemma take_progress : forall p ps rs rc, rs + p <= maxS -> rc + 1 <= maxC ->
  (0 < take maxS maxC rs rc (p :: ps))%nat.
Proof.
  intros p ps rs rc H1 H2. simpl.
  destruct ((rs + p >? maxS) || (rc + 1 >? maxC)) eqn:E; lia.
Qed.

Lemma take_stops_before_big : forall ps rs rc, 0 <= rs -> Forall (fun p => 0 <= p) ps ->
  Exists (fun p => p > maxS) ps -> Exists (fun p => p > maxS) (skipn (take maxS maxC rs rc ps) ps).
Proof.
  induction ps as [|p ps IH]; intros rs rc Hrs Hnn Hex; simpl; [exact Hex|].
  destruct ((rs + p >? maxS) || (rc + 1 >? maxC)) eqn:E; [exact Hex|].
  apply Forall_cons_iff in Hnn as [Hp Hnn]. apply Exists_cons in Hex as [Hbig|Hex]; [lia|].
  apply IH; [lia|assumption|assumption].
Qed.
End Take.

(* [incr_from lo (map a_idx out) = true]: the shard indices of [out] increase strictly and
   start at lo or above; this is the form of "ordered over distinct shards" that follows the
   loop, which goes on with shard S i after shard i *)
Lemma incr_from_spec : forall l lo, incr_from lo l = true <->
  Forall (fun x => (lo <= x)%nat) l /\ StronglySorted lt l.
Proof.
  induction l as [|x l IH]; intros lo; simpl.
  - split; [intros _; split; constructor|reflexivity].
  - rewrite andb_true_iff, Nat.leb_le, IH. split.
    + intros (Hlo & HF & HS). split; constructor; try assumption.
      eapply Forall_impl; [|exact HF]. simpl. intros; lia.
    + intros (HF & HS). apply Forall_inv in HF. apply StronglySorted_inv in HS as [HS HF'].
      repeat split; assumption.
Qed.

Lemma incr_from_0 : forall l, incr_from 0 l = true <-> StronglySorted lt l.
Proof.
  intros l. rewrite incr_from_spec. split; [intros [_ H]; exact H|intros H; split; [|exact H]].
  apply Forall_forall. intros; lia.
Qed.

Lemma incr_from_weaken : forall l lo lo', (lo <= lo')%nat -> incr_from lo' l = true -> incr_from lo l = true.
Proof.
  intros [|x l] lo lo' H; simpl; [reflexivity|].
  rewrite !andb_true_iff, !Nat.leb_le. intros [H1 H2]. split; [lia|exact H2].
Qed.

Lemma incr_from_In : forall out lo a, incr_from lo (map a_idx out) = true -> In a out -> (lo <= a_idx a)%nat.
Proof.
  intros out lo a H Hin. apply incr_from_spec in H as [H _].
  exact (proj1 (Forall_forall _ _) H _ (in_map a_idx _ _ Hin)).
Qed.

Lemma range_of_notin : forall out i, (forall s e, ~ In (i, s, e) out) -> range_of out i = (O, O).
Proof.
  induction out as [|[[j s] e] out IH]; intros i H; [reflexivity|].
  cbn. destruct (Nat.eqb_spec j i) as [->|_].
  - destruct (H s e). left. reflexivity.
  - apply IH. intros s' e' Hin. apply (H s' e'). right. exact Hin.
Qed.

Lemma range_of_above : forall out i, incr_from (S i) (map a_idx out) = true -> range_of out i = (O, O).
Proof.
  intros out i H. apply range_of_notin. intros s e Hin.
  apply (incr_from_In _ _ _ H) in Hin. cbn in Hin. lia.
Qed.

(* going through the shards lo, lo+1, ... in order, each one either has no range or has the first one of [out] *)
Lemma shard_walk : forall P : nat -> nat -> list assignment -> Prop,
  (forall lo, P lo O []) ->
  (forall lo m out, incr_from (S lo) (map a_idx out) = true -> P (S lo) m out -> P lo (S m) out) ->
  (forall lo m s e out, incr_from (S lo) (map a_idx out) = true -> P (S lo) m out ->
     P lo (S m) ((lo, s, e) :: out)) ->
  forall m lo out, incr_from lo (map a_idx out) = true ->
    Forall (fun a => (a_idx a < lo + m)%nat) out -> P lo m out.
Proof.
  intros P Hnil Hskip Htake. induction m as [|m IH]; intros lo out Hinc Hlt.
  - destruct out as [|a out]; [apply Hnil|]. apply Forall_inv in Hlt.
    pose proof (incr_from_In _ _ a Hinc (or_introl eq_refl)). lia.
  - rewrite Nat.add_succ_r in Hlt. destruct out as [|[[j s] e] out].
    + apply Hskip; [reflexivity|]. apply IH; [reflexivity|constructor].
    + pose proof Hinc as Hinc'. cbn in Hinc'. apply andb_true_iff in Hinc' as [Hj Hinc'].
      apply Nat.leb_le in Hj. destruct (Nat.eq_dec j lo) as [->|Hne].
      * apply Htake; [exact Hinc'|]. apply IH; [exact Hinc'|]. apply Forall_inv_tail in Hlt. exact Hlt.
      * assert (Hinc1 : incr_from (S lo) (map a_idx ((j, s, e) :: out)) = true)
          by (apply andb_true_iff; split; [apply Nat.leb_le; cbn; lia|exact Hinc']).
        apply Hskip; [exact Hinc1|]. apply IH; [exact Hinc1|exact Hlt].
Qed.

Section Loop.
Variables maxS maxC : Z.

Definition fit_all (ps : list Z) : Prop := Forall (fun p => 0 <= p <= maxS) ps.

Lemma take_fresh : forall p ps, fit_all (p :: ps) -> 1 <= maxC -> (0 < take maxS maxC 0 0 (p :: ps))%nat.
Proof. intros p ps H Hc. apply Forall_inv in H. apply take_progress; lia. Qed.

Definition emit (i last k : nat) (out : list assignment) : list assignment :=
  if (0 <? k)%nat then (i, last, (last + k)%nat) :: out else out.

(* the shard just handled was the last one and points remain: createShardFn is called *)
Definition grows (rest' : list shard) (ps' : list Z) : bool :=
  match rest', ps' with [], _ :: _ => true | _, _ => false end.

Lemma grows_spec : forall rest' ps',
  if grows rest' ps' then length rest' = O /\ (0 < length ps')%nat else length rest' = O -> length ps' = O.
Proof. intros [|s r] [|p ps]; simpl; lia. Qed.

Lemma dist_loop_S : forall f i sz ct rest' last ps cr,
  dist_loop maxS maxC (S f) i ((sz, ct) :: rest') last ps cr =
  let k := take maxS maxC sz ct ps in
  let g := grows rest' (skipn k ps) in
  match dist_loop maxS maxC f (S i) (if g then [(0, 0)] else rest') (last + k) (skipn k ps)
                  (if g then S cr else cr) with
  | None => None
  | Some (out, c) => Some (emit i last k out, c)
  end.
Proof. reflexivity. Qed.

Lemma dist_loop_Some : forall f i sz ct rest' last ps cr out c,
  dist_loop maxS maxC (S f) i ((sz, ct) :: rest') last ps cr = Some (out, c) ->
  let k := take maxS maxC sz ct ps in
  let g := grows rest' (skipn k ps) in
  exists out', out = emit i last k out' /\
    dist_loop maxS maxC f (S i) (if g then [(0, 0)] else rest') (last + k) (skipn k ps)
              (if g then S cr else cr) = Some (out', c).
Proof.
  intros f i sz ct rest' last ps cr out c H. rewrite dist_loop_S in H. cbv zeta in *.
  destruct (dist_loop maxS maxC f (S i) _ _ _ _) as [[out' c']|]; [|discriminate].
  injection H as <- <-. exists out'. split; reflexivity.
Qed.

(* every shard the loop creates takes a point; a given one need not *)
Lemma loop_terminates : forall fuel i rest last ps cr, fit_all ps -> 1 <= maxC ->
  (length rest + length ps <= fuel)%nat \/ rest = [(0, 0)] /\ (0 < length ps <= fuel)%nat ->
  dist_loop maxS maxC fuel i rest last ps cr <> None.
Proof.
  induction fuel as [|f IH]; intros i rest last ps cr Hfit Hc Hf;
    (destruct rest as [|[sz ct] rest']; [discriminate|]).
  - exfalso. simpl in Hf. lia.
  - rewrite dist_loop_S. cbv zeta.
    set (k := take maxS maxC sz ct ps). set (g := grows rest' (skipn k ps)).
    pose proof (take_le maxS maxC ps sz ct : k <= length ps)%nat as Hk.
    pose proof (grows_spec rest' (skipn k ps)) as G. fold g in G.
    pose proof (skipn_length k ps) as Hlen.
    assert (Hpos : (sz, ct) :: rest' = [(0, 0)] -> (0 < length ps -> 0 < k)%nat).
    { intros [= -> -> _] Hp. destruct ps; [simpl in Hp; lia|apply take_fresh; assumption]. }
    destruct (dist_loop maxS maxC f _ _ _ _ _) as [[out c]|] eqn:E; [discriminate|].
    exfalso. revert E. apply IH; [apply Forall_skipn, Hfit|exact Hc|].
    destruct g; [right; split; [reflexivity|]|left].
    + destruct Hf as [Hf|[E Hf]]; [simpl in Hf; lia|specialize (Hpos E); lia].
    + destruct Hf as [Hf|[E Hf]]; [simpl in Hf; lia|]. injection E as _ _ ->. rewrite (G eq_refl). apply Nat.le_0_l.
Qed.

Lemma loop_diverges : forall fuel i rest last ps cr,
  rest <> [] -> Forall (fun s : shard => 0 <= fst s) rest ->
  Forall (fun p => 0 <= p) ps -> Exists (fun p => p > maxS) ps ->
  dist_loop maxS maxC fuel i rest last ps cr = None.
Proof.
  induction fuel as [|f IH]; intros i rest last ps cr Hne Hsh Hnn Hex;
    (destruct rest as [|[sz ct] rest']; [congruence|]); [reflexivity|].
  rewrite dist_loop_S. cbv zeta. apply Forall_cons_iff in Hsh as [Hsz Hsh].
  pose proof (take_stops_before_big maxS maxC ps sz ct Hsz Hnn Hex) as Hex'.
  pose proof (grows_spec rest' (skipn (take maxS maxC sz ct ps) ps)) as G.
  rewrite IH; [reflexivity| | |apply Forall_skipn, Hnn|exact Hex'].
  - destruct (grows rest' _); [discriminate|]. intros ->.
    apply length_zero_iff_nil in G; [|reflexivity]. rewrite G in Hex'. inversion Hex'.
  - destruct (grows rest' _); [repeat constructor; simpl; lia|exact Hsh].
Qed.

Lemma loop_created : forall fuel i rest last ps cr out c,
  dist_loop maxS maxC fuel i rest last ps cr = Some (out, c) ->
  (cr <= c /\ (length rest = 0 -> c = cr))%nat.
Proof.
  induction fuel as [|f IH]; intros i rest last ps cr out c H;
    (destruct rest as [|[sz ct] rest']; [injection H as _ <-; lia|]); [discriminate|].
  apply dist_loop_Some in H as (out' & _ & E). apply IH in E.
  destruct (grows rest' _); simpl; lia.
Qed.

(* the final shards after the current one are the given ones that remain and then those still to be
   created, in the next iteration as in this one *)
Lemma grow_visited : forall rest' ps' cr c,
  ((if grows rest' ps' then S cr else cr) <= c)%nat ->
  rest' ++ repeat (0, 0) (c - cr) =
  (if grows rest' ps' then [(0, 0)] else rest') ++ repeat (0, 0) (c - (if grows rest' ps' then S cr else cr)).
Proof.
  intros [|s r] [|p ps] cr c H; try reflexivity.
  simpl in *. replace (c - cr)%nat with (S (c - S cr)) by lia. reflexivity.
Qed.

Lemma in_emit : forall i last k out a, In a out -> In a (emit i last k out).
Proof. intros. unfold emit. destruct (0 <? k)%nat; [right|]; assumption. Qed.

Lemma Forall_emit : forall (P : assignment -> Prop) i last k out,
  ((0 < k)%nat -> P (i, last, (last + k)%nat)) -> Forall P out -> Forall P (emit i last k out).
Proof.
  intros P i last k out Hh Ht. unfold emit.
  destruct (Nat.ltb_spec 0 k); [constructor; auto|exact Ht].
Qed.

Lemma chain_emit : forall i last k out b, chain (last + k) out b -> chain last (emit i last k out) b.
Proof.
  intros i last k out b H. unfold emit. destruct (Nat.ltb_spec 0 k) as [Hk|Hk].
  - constructor; [lia|exact H].
  - replace k with 0%nat in H by lia. rewrite Nat.add_0_r in H. exact H.
Qed.

Lemma incr_emit : forall i last k out,
  incr_from (S i) (map a_idx out) = true -> incr_from i (map a_idx (emit i last k out)) = true.
Proof.
  intros i last k out H. unfold emit. destruct (0 <? k)%nat.
  - cbn. rewrite Nat.leb_refl. exact H.
  - apply (incr_from_weaken _ i (S i)); [lia|exact H].
Qed.

Lemma range_of_emit_other : forall i last k out j, j <> i ->
  range_of (emit i last k out) j = range_of out j.
Proof.
  intros. unfold emit. destruct (0 <? k)%nat; [|reflexivity]. cbn.
  destruct (Nat.eqb_spec i j); [congruence|reflexivity].
Qed.

Lemma slice_at : forall sizes last k, slice sizes last (last + k) = firstn k (skipn last sizes).
Proof. intros. unfold slice. f_equal. lia. Qed.

Variables (sizes : list Z) (fs : list shard).

Lemma fill_after_emit : forall i last k out, incr_from (S i) (map a_idx out) = true ->
  fill_after fs sizes (emit i last k out) i =
  (fst (nth i fs (0, 0)) + sumZ (firstn k (skipn last sizes)), snd (nth i fs (0, 0)) + Z.of_nat k).
Proof.
  intros i last k out H. unfold fill_after, emit. destruct (Nat.ltb_spec 0 k) as [Hk|Hk].
  - cbn. rewrite Nat.eqb_refl. cbn [fst snd]. rewrite slice_at. do 2 f_equal. lia.
  - rewrite (range_of_above _ _ H). replace k with 0%nat by lia. reflexivity.
Qed.

Lemma head_fits : forall i sz ct last k,
  k = take maxS maxC sz ct (skipn last sizes) -> (0 < k)%nat -> nth i fs (0, 0) = (sz, ct) ->
  fits_range fs sizes maxS maxC (i, last, (last + k)%nat).
Proof.
  intros i sz ct last k Hk Hpos Hnth.
  unfold fits_range, a_idx, a_start, a_end. cbn [fst snd]. rewrite Hnth. cbn [fst snd].
  rewrite slice_at. replace (last + k - last)%nat with k by lia.
  rewrite Hk in *. apply take_limits. exact Hpos.
Qed.

Lemma stop_no_fit : forall i sz ct last k out,
  k = take maxS maxC sz ct (skipn last sizes) -> (k < length (skipn last sizes))%nat ->
  nth i fs (0, 0) = (sz, ct) -> incr_from (S i) (map a_idx out) = true ->
  exists p, nth_error sizes (last + k) = Some p /\
            no_fit maxS maxC (fill_after fs sizes (emit i last k out) i) p.
Proof.
  intros i sz ct last k out Hk Hlt Hnth Hab.
  rewrite Hk in Hlt. destruct (take_maximal maxS maxC _ sz ct Hlt) as (p & Hp & Hno).
  rewrite <- Hk in *. exists p. rewrite <- nth_error_skipn. split; [exact Hp|].
  unfold no_fit. rewrite (fill_after_emit _ _ _ _ Hab), Hnth. exact Hno.
Qed.

Lemma head_used : forall fuel i rest' last ps cr out c, fit_all ps -> 1 <= maxC -> (0 < length ps)%nat ->
  dist_loop maxS maxC fuel i ((0, 0) :: rest') last ps cr = Some (out, c) -> exists e, In (i, last, e) out.
Proof.
  intros fuel i rest' last [|p ps] cr out c Hfit Hc Hlen H; [simpl in Hlen; lia|].
  destruct fuel; [discriminate|]. apply dist_loop_Some in H as (out' & -> & _).
  eexists. unfold emit. rewrite (proj2 (Nat.ltb_lt _ _)) by (apply take_fresh; assumption).
  left. reflexivity.
Qed.

(* the clause of fresh_spec for the shard of index x *)
Definition fresh_at (out : list assignment) (x : nat) : Prop :=
  exists s e, In (x, s, e) out /\
    match x with
    | O => True
    | S j => exists p, nth_error sizes s = Some p /\ no_fit maxS maxC (fill_after fs sizes out j) p
    end.

Lemma fresh_at_emit : forall i last k out x, x <> S i -> fresh_at out x -> fresh_at (emit i last k out) x.
Proof.
  intros i last k out x Hx (s & e & Hin & H). exists s, e. split; [apply in_emit, Hin|].
  destruct x as [|j]; [exact I|]. unfold fill_after. rewrite range_of_emit_other by congruence. exact H.
Qed.

(* what holds of the result of the loop started in any state: [sizes] is the whole batch,
   [fs] the final shard list, of which the loop sees the part from i on *)
Lemma loop_spec : forall fuel i rest last cr out c,
  dist_loop maxS maxC fuel i rest last (skipn last sizes) cr = Some (out, c) ->
  skipn i fs = rest ++ repeat (0, 0) (c - cr) ->
  (length rest = 0 -> length (skipn last sizes) = 0)%nat -> fit_all sizes -> 1 <= maxC ->
  chain last out (last + length (skipn last sizes)) /\
  incr_from i (map a_idx out) = true /\
  Forall (fun a => (a_idx a < length fs)%nat) out /\
  limits_spec fs sizes maxS maxC out /\
  forall x, (i + length rest <= x < length fs)%nat -> fresh_at out x.
Proof.
  induction fuel as [|f IH]; intros i rest last cr out c H Hfs Hemp Hfit Hc;
    pose proof (f_equal (@length _) Hfs) as Lfs;
    rewrite skipn_length, app_length, repeat_length in Lfs; fold shard in Lfs;
    destruct rest as [|[sz ct] rest'].
  1, 3: injection H as <- <-; rewrite (Hemp eq_refl), Nat.add_0_r;
    repeat split; try constructor; simpl in *; intros; lia.
  - discriminate.
  - apply dist_loop_Some in H as (out' & -> & E).
    set (k := take maxS maxC sz ct (skipn last sizes)) in *. rewrite <- skipn_add in E.
    pose proof (grows_spec rest' (skipn (last + k) sizes)) as G.
    pose proof (loop_created _ _ _ _ _ _ _ _ E) as [Hcc Hc0].
    pose proof (take_le maxS maxC (skipn last sizes) sz ct : k <= _)%nat as Hk.
    assert (Hlen : (k + length (skipn (last + k) sizes) = length (skipn last sizes))%nat)
      by (rewrite !skipn_length in *; lia).
    apply (skipn_cons_nth _ _ _ _ _ (0, 0)) in Hfs as (Hfs & Hnth & Hi).
    rewrite (grow_visited rest' (skipn (last + k) sizes)) in Hfs by exact Hcc.
    destruct (IH _ _ _ _ _ _ E Hfs) as (Ch & Inc & Idx & Lim & Fr);
      [destruct (grows rest' _); [discriminate|exact G]|exact Hfit|exact Hc|].
    split; [|split; [|split; [|split]]].
    + apply chain_emit. rewrite <- Hlen, Nat.add_assoc. exact Ch.
    + apply incr_emit, Inc.
    + apply Forall_emit; [intros _; exact Hi|exact Idx].
    + apply Forall_emit; [|exact Lim]. intros Hk0. eapply head_fits; [reflexivity|exact Hk0|exact Hnth].
    + intros x Hx. destruct (Nat.eq_dec x (S i)) as [->|Hne].
      * (* the shard created right now *)
        destruct (grows rest' _); [|cbn [length] in Hx, Lfs; lia].
        destruct (head_used _ _ _ _ _ _ _ _ (Forall_skipn _ _ _ Hfit) Hc (proj2 G) E) as [e He].
        exists (last + k)%nat, e. split; [apply in_emit, He|].
        eapply stop_no_fit; [reflexivity|lia|exact Hnth|exact Inc].
      * apply fresh_at_emit; [exact Hne|]. apply Fr. destruct (grows rest' _); cbn [length] in *; lia.
Qed.

End Loop.

Lemma final_shards_length : forall shards c, length (final_shards shards c) = (length shards + c)%nat.
Proof. intros. unfold final_shards. rewrite app_length, repeat_length. reflexivity. Qed.

(* the initial empty shard is created under the same condition as the later ones *)
Lemma distribute_fuel_eq : forall fuel shards sizes maxS maxC,
  distribute_fuel fuel shards sizes maxS maxC =
  dist_loop maxS maxC fuel 0 (if grows shards sizes then [(0, 0)] else shards) 0 sizes
            (if grows shards sizes then 1 else 0).
Proof. intros fuel [|s shards] [|p sizes]; reflexivity. Qed.

Lemma distribute_fuel_enough : forall fuel shards sizes maxS maxC, fit_all maxS sizes -> 1 <= maxC ->
  (length shards + length sizes <= fuel)%nat ->
  exists out created, distribute_fuel fuel shards sizes maxS maxC = Some (out, created).
Proof.
  intros fuel shards sizes maxS maxC Hfit Hc Hf.
  destruct (distribute_fuel fuel shards sizes maxS maxC) as [[out c]|] eqn:E; [exists out, c; reflexivity|].
  exfalso. revert E. rewrite distribute_fuel_eq. apply loop_terminates; [exact Hfit|exact Hc|].
  pose proof (grows_spec shards sizes) as G. unfold shard in *.
  destruct (grows shards sizes); [right; split; [reflexivity|]|left]; lia.
Qed.

Lemma distribute_diverges : forall fuel shards sizes maxS maxC,
  Forall (fun s : shard => 0 <= fst s) shards -> Forall (fun p => 0 <= p) sizes ->
  Exists (fun p => p > maxS) sizes ->
  distribute_fuel fuel shards sizes maxS maxC = None.
Proof.
  intros fuel shards sizes maxS maxC Hsh Hnn Hex. rewrite distribute_fuel_eq.
  destruct shards, sizes; try (inversion Hex; fail); apply loop_diverges; try assumption; try discriminate.
  repeat constructor; simpl; lia.
Qed.

Theorem distribute_spec : forall fuel maxS maxC shards sizes out c,
  fit_all maxS sizes -> 1 <= maxC ->
  distribute_fuel fuel shards sizes maxS maxC = Some (out, c) -> dist_spec shards sizes maxS maxC out c.
Proof.
  intros fuel maxS maxC shards sizes out c Hfit Hc H. rewrite distribute_fuel_eq in H.
  pose proof (grows_spec shards sizes) as G.
  pose proof (loop_created _ _ _ _ _ _ _ _ _ _ H) as [Hcc _].
  destruct (loop_spec maxS maxC sizes (final_shards shards c) _ 0 _ 0 _ _ _ H) as (Ch & Inc & Idx & Lim & Fr).
  - pose proof (grow_visited shards sizes 0 c Hcc) as E. rewrite Nat.sub_0_r in E. exact E.
  - destruct (grows shards sizes); [discriminate|exact G].
  - exact Hfit.
  - exact Hc.
  - split; [split; [exact Ch|split]|split; [exact Lim|]].
    + apply incr_from_spec in Inc. apply Inc.
    + rewrite final_shards_length in Idx. exact Idx.
    + intros k Hk. rewrite final_shards_length in Fr. destruct (grows shards sizes); [|apply Fr; simpl; lia].
      destruct G as [G Hp]. apply length_zero_iff_nil in G as ->.
      destruct k; [|apply Fr; simpl in *; lia].
      destruct (head_used _ _ _ _ _ _ _ _ _ _ Hfit Hc Hp H) as [e He]. exists 0%nat, e. split; [exact He|exact I].
Qed.

Definition range_len (out : list assignment) (i : nat) : nat :=
  (snd (range_of out i) - fst (range_of out i))%nat.
Definition sum_len (out : list assignment) : nat :=
  fold_right (fun a acc => (a_end a - a_start a + acc)%nat) O out.

Lemma chain_len : forall a out b, chain a out b -> (a + sum_len out = b)%nat.
Proof. induction 1 as [a|i s e out b Hlt H IH]; simpl; [lia|]. unfold a_end, a_start. simpl. lia. Qed.

Lemma sumZ_map_add : forall (f g : nat -> Z) l,
  sumZ (map (fun i => f i + g i) l) = sumZ (map f l) + sumZ (map g l).
Proof. induction l as [|x l IH]; simpl; [reflexivity|]. rewrite IH. lia. Qed.

Lemma sum_range_len : forall m lo out,
  incr_from lo (map a_idx out) = true -> Forall (fun a => (a_idx a < lo + m)%nat) out ->
  sumZ (map (fun i => Z.of_nat (range_len out i)) (seq lo m)) = Z.of_nat (sum_len out).
Proof.
  apply (shard_walk (fun lo m out =>
    sumZ (map (fun i => Z.of_nat (range_len out i)) (seq lo m)) = Z.of_nat (sum_len out))).
  - reflexivity.
  - intros lo m out Hinc IH. simpl. rewrite IH. unfold range_len. rewrite (range_of_above _ _ Hinc). simpl. lia.
  - intros lo m s e out Hinc IH. cbn [seq map]. rewrite (map_ext_in _ (fun i => Z.of_nat (range_len out i))).
    + simpl. rewrite IH. unfold range_len. cbn. rewrite Nat.eqb_refl. cbn. lia.
    + intros i Hi. apply in_seq in Hi. unfold range_len. cbn.
      destruct (Nat.eqb_spec lo i); [lia|reflexivity].
Qed.

Lemma count_identity : forall fs n out, partition_spec (length fs) n out ->
  new_total fs out = total_count fs + Z.of_nat n.
Proof.
  intros fs n out (Hch & HS & HF). unfold new_total, total_count, new_count.
  rewrite (sumZ_map_add (fun i => snd (nth i fs (0, 0))) (fun i => Z.of_nat (range_len out i))).
  rewrite sum_range_len; [|apply incr_from_0, HS|exact HF].
  apply chain_len in Hch. simpl in Hch. rewrite Hch. f_equal.
  rewrite <- (map_map (fun i => nth i fs (0, 0)) snd), map_nth_seq. reflexivity.
Qed.

Lemma total_count_final : forall shards c, total_count (final_shards shards c) = total_count shards.
Proof.
  intros. unfold total_count, final_shards. rewrite map_app, sumZ_app.
  unfold shard in *. induction c as [|c IH]; simpl in *; lia.
Qed.

Lemma chain_b_spec : forall out a b, chain_b a out b = true <-> chain a out b.
Proof.
  induction out as [|[[i s] e] out IH]; intros a b; simpl.
  - rewrite Nat.eqb_eq. split; [intros ->; constructor|inversion 1; reflexivity].
  - unfold a_start, a_end. simpl. rewrite !andb_true_iff, Nat.eqb_eq, Nat.ltb_lt, IH. split.
    + intros [[-> Hlt] Hc]. constructor; assumption.
    + inversion 1; subst. repeat split; assumption.
Qed.

Lemma partition_b_spec : forall nshards n out, partition_b nshards n out = true <-> partition_spec nshards n out.
Proof.
  intros. unfold partition_b, partition_spec.
  rewrite !andb_true_iff, chain_b_spec, incr_from_0, forallb_forall, Forall_forall, and_assoc.
  setoid_rewrite Nat.ltb_lt. reflexivity.
Qed.

Lemma limits_b_spec : forall fs sizes maxS maxC out,
  limits_b fs sizes maxS maxC out = true <-> limits_spec fs sizes maxS maxC out.
Proof.
  intros. unfold limits_b, limits_spec, fits_range_b, fits_range. rewrite forallb_forall, Forall_forall.
  setoid_rewrite andb_true_iff. setoid_rewrite Z.leb_le. reflexivity.
Qed.

Lemma no_fit_b_spec : forall maxS maxC f p, no_fit_b maxS maxC f p = true <-> no_fit maxS maxC f p.
Proof. intros. unfold no_fit_b, no_fit. rewrite orb_true_iff. lia. Qed.

Lemma find_idx : forall out lo i s e, incr_from lo (map a_idx out) = true -> In (i, s, e) out ->
  find (fun a => (a_idx a =? i)%nat) out = Some (i, s, e).
Proof.
  induction out as [|x out IH]; intros lo i s e Hinc Hin; [contradiction|].
  cbn in Hinc. apply andb_true_iff in Hinc as [_ Hinc]. simpl.
  destruct Hin as [->|Hin]; [cbn; rewrite Nat.eqb_refl; reflexivity|].
  destruct (Nat.eqb_spec (a_idx x) i) as [E|_]; [|exact (IH _ _ _ _ Hinc Hin)].
  apply (incr_from_In _ _ _ Hinc) in Hin. cbn in Hin. lia.
Qed.

Lemma range_of_find : forall out i,
  range_of out i = match find (fun a => (a_idx a =? i)%nat) out with
                   | Some a => (a_start a, a_end a)
                   | None => (O, O)
                   end.
Proof.
  induction out as [|x out IH]; intros i; [reflexivity|].
  simpl. destruct (a_idx x =? i)%nat; [reflexivity|apply IH].
Qed.

Lemma range_of_in : forall out i s e, StronglySorted lt (map a_idx out) -> In (i, s, e) out ->
  range_of out i = (s, e).
Proof.
  intros out i s e HS Hin. apply incr_from_0 in HS.
  rewrite range_of_find, (find_idx _ _ _ _ _ HS Hin). reflexivity.
Qed.

Lemma fresh_b_spec : forall shards sizes maxS maxC out created,
  StronglySorted lt (map a_idx out) ->
  (fresh_b shards sizes maxS maxC out created = true <-> fresh_spec shards sizes maxS maxC out created).
Proof.
  intros shards sizes maxS maxC out created HS. apply incr_from_0 in HS. unfold fresh_b, fresh_spec.
  rewrite forallb_forall. setoid_rewrite in_seq.
  split; intros H k Hk; specialize (H k ltac:(lia)); unfold fresh_one_b in *.
  - destruct (find _ out) as [[[j s] e]|] eqn:Ef; [|discriminate].
    apply find_some in Ef as [Hin Hj]. apply Nat.eqb_eq in Hj. cbn in Hj, H. subst j.
    exists s, e. split; [exact Hin|].
    destruct (length shards + k)%nat; [exact I|].
    destruct (nth_error sizes s) as [p|]; [|discriminate].
    exists p. split; [reflexivity|apply no_fit_b_spec, H].
  - destruct H as (s & e & Hin & H). rewrite (find_idx _ _ _ _ _ HS Hin). cbn.
    destruct (length shards + k)%nat; [reflexivity|].
    destruct H as (p & -> & H). apply no_fit_b_spec, H.
Qed.

Lemma check_dist_spec : forall shards sizes maxS maxC out created,
  check_dist shards sizes maxS maxC out created = true <-> dist_spec shards sizes maxS maxC out created.
Proof.
  intros. unfold check_dist, dist_spec. rewrite !andb_true_iff, partition_b_spec, limits_b_spec, and_assoc.
  split; intros (HP & HL & HF); (split; [exact HP|split; [exact HL|]]);
    apply (fresh_b_spec _ _ _ _ _ _ (proj1 (proj2 HP))), HF.
Qed.

(* the partition, in the reading "concatenating the ranges gives 0,1,...,n-1" *)
Lemma chain_flat : forall a out b, chain a out b ->
  flat_map (fun x => seq (a_start x) (a_end x - a_start x)) out = seq a (b - a) /\ (a <= b)%nat.
Proof.
  induction 1 as [a|i s e out b Hlt H [IH1 IH2]]; cbn.
  - rewrite Nat.sub_diag. split; [reflexivity|lia].
  - rewrite IH1. split; [|lia].
    replace (b - s)%nat with ((e - s) + (b - e))%nat by lia.
    rewrite seq_app. do 2 f_equal. lia.
Qed.

Lemma chain_nonempty : forall a out b, chain a out b -> Forall (fun x => (a_start x < a_end x)%nat) out.
Proof. induction 1 as [a|i s e out b Hlt H IH]; constructor; [exact Hlt|exact IH]. Qed.

Lemma insert_refused_spec : forall total n quota, insert_refused total n quota = true <-> total + n > quota.
Proof. intros. unfold insert_refused. lia. Qed.

Lemma create_collection_spec : forall count maxc ex,
  (ex = true -> create_collection count maxc ex = CrExists) /\
  (ex = false -> count >= maxc -> create_collection count maxc ex = CrQuota) /\
  (ex = false -> count < maxc -> create_collection count maxc ex = CrCreated).
Proof.
  intros. unfold create_collection.
  repeat split; intros ->; try reflexivity; intros H; destruct (count >=? maxc) eqn:E; (reflexivity || lia).
Qed.

Lemma keqb_eq : forall a b, keqb a b = true <-> a = b.
Proof.
  intros [a1 a2] [b1 b2]. unfold keqb. simpl. rewrite andb_true_iff, !N.eqb_eq.
  split; [intros [-> ->]; reflexivity|intros [= -> ->]; split; reflexivity].
Qed.

Lemma step_refusal_unchanged : forall pl st r, snd (step pl st r) <> RespOk -> fst (step pl st r) = st.
Proof.
  intros pl st [u c|u c n failed]; simpl.
  - destruct (create_collection _ _ _); simpl; [congruence|reflexivity|reflexivity].
  - destruct (lookup st (u, c)) as [t|]; [|reflexivity].
    destruct (insert_refused t n (snd (pl u))); simpl; [reflexivity|congruence].
Qed.

Lemma lookup_app : forall st k v k',
  lookup (st ++ [(k, v)]) k' =
  match lookup st k' with Some t => Some t | None => if keqb k k' then Some v else None end.
Proof.
  induction st as [|[k0 t0] st IH]; intros k v k'; simpl; [destruct (keqb k k'); reflexivity|].
  destruct (keqb k0 k'); [reflexivity|apply IH].
Qed.

Lemma lookup_set_total : forall st k v k',
  lookup (set_total st k v) k' =
  if keqb k k' then match lookup st k' with Some _ => Some v | None => None end else lookup st k'.
Proof.
  induction st as [|[k0 t0] st IH]; intros k v k'; simpl; [destruct (keqb k k'); reflexivity|].
  destruct (keqb k0 k) eqn:E0; simpl.
  - apply keqb_eq in E0 as ->. destruct (keqb k k'); reflexivity.
  - destruct (keqb k0 k') eqn:E1; [|apply IH]. apply keqb_eq in E1 as <-.
    destruct (keqb k k0) eqn:E2; [|reflexivity].
    apply keqb_eq in E2 as ->. rewrite (proj2 (keqb_eq k0 k0) eq_refl) in E0. discriminate.
Qed.

Lemma user_count_app : forall st k t u,
  user_count (st ++ [(k, t)]) u = user_count st u + (if (fst k =? u)%N then 1 else 0).
Proof.
  intros. unfold user_count. rewrite filter_app, app_length. simpl.
  destruct (fst k =? u)%N; simpl; lia.
Qed.

Lemma user_count_set_total : forall st k v u, user_count (set_total st k v) u = user_count st u.
Proof.
  intros st k v u. unfold user_count. f_equal.
  induction st as [|[k0 t0] st IH]; [reflexivity|]. simpl.
  destruct (keqb k0 k); simpl; destruct (fst k0 =? u)%N; simpl; rewrite ?IH; reflexivity.
Qed.

Definition init_total (st0 : cstate) (k : ckey) : Z :=
  match lookup st0 k with Some t => t | None => 0 end.

(* no user has more collections, and no collection more points, than the plan allows or the
   initial state st0 already had; no collection disappears, so one that is created was not in st0 *)
Definition quota_inv (pl : plans) (st0 st : cstate) : Prop :=
  (forall u, user_count st u <= Z.max (fst (pl u)) (user_count st0 u)) /\
  (forall k t, lookup st k = Some t -> t <= Z.max (snd (pl (fst k))) (init_total st0 k)) /\
  (forall k, lookup st k = None -> lookup st0 k = None).

Lemma quota_inv_init : forall pl st0, quota_inv pl st0 st0.
Proof.
  intros pl st0. split; [intros u; lia|]. split; [|intros k Hk; exact Hk].
  intros k t Hk. unfold init_total. rewrite Hk. lia.
Qed.

Lemma step_preserves : forall pl st0 st r, request_ok r ->
  quota_inv pl st0 st -> quota_inv pl st0 (fst (step pl st r)).
Proof.
  intros pl st0 st r Hr (HC & HT & HK). destruct r as [u c|u c n failed]; simpl.
  - unfold create_collection. destruct (lookup st (u, c)); [repeat split; assumption|].
    destruct (user_count st u >=? fst (pl u)) eqn:E; simpl; [repeat split; assumption|].
    split; [|split]; intros k; [|intros t|]; rewrite ?lookup_app.
    + rewrite user_count_app. simpl. specialize (HC k). destruct (N.eqb_spec u k) as [<-|_]; lia.
    + destruct (lookup st k) eqn:Ek; [intros [= <-]; exact (HT _ _ Ek)|].
      destruct (keqb (u, c) k); [intros [= <-]|discriminate].
      unfold init_total. rewrite (HK _ Ek). lia.
    + destruct (lookup st k) eqn:Ek; [discriminate|intros _; exact (HK _ Ek)].
  - destruct (lookup st (u, c)) as [t|] eqn:El; [|repeat split; assumption].
    unfold insert_refused. destruct (t + n >? snd (pl u)) eqn:E; simpl; [repeat split; assumption|].
    split; [|split]; intros k; [|intros t'|]; rewrite ?lookup_set_total.
    + rewrite user_count_set_total. apply HC.
    + destruct (keqb (u, c) k) eqn:Ek; [|apply HT]. apply keqb_eq in Ek as <-. rewrite El.
      intros [= <-]. simpl in *. lia.
    + intros Hk. apply HK. destruct (keqb (u, c) k); [|exact Hk]. destruct (lookup st k); [discriminate|reflexivity].
Qed.

Lemma run_invariant : forall pl st0 rs st, Forall request_ok rs ->
  quota_inv pl st0 st -> quota_inv pl st0 (run pl st rs).
Proof.
  intros pl st0 rs st Hrs. revert st. induction Hrs as [|r rs Hr _ IH]; intros st Hinv; [exact Hinv|].
  apply IH, step_preserves; assumption.
Qed.

(* what the checker of the ranges stored on a live node (Run_C15.CLive) accepts: every shard holds a
   contiguous range of batch positions, range_from a n = a, a+1, ..., a+n-1, and every position occurs once *)
Definition range_from (a : N) (n : nat) : list N := map (fun k => (a + N.of_nat k)%N) (seq 0 n).

Lemma contig_from_spec : forall l a, contig_from a l = true -> l = range_from a (length l).
Proof.
  induction l as [|x r IH]; intros a H; [reflexivity|].
  cbn [contig_from] in H. apply andb_true_iff in H as [Hx Hr]. apply N.eqb_eq in Hx. subst x.
  unfold range_from. cbn [length seq map]. f_equal; [lia|].
  rewrite (IH _ Hr) at 1. unfold range_from.
  rewrite <- seq_shift, map_map. apply map_ext. intros k. lia.
Qed.

Lemma contig_b_spec : forall l, contig_b l = true -> exists a, l = range_from a (length l).
Proof.
  intros [|x r] H; [exists 0%N; reflexivity|].
  exists x. apply contig_from_spec. exact H.
Qed.

Lemma once_each_b_spec : forall n l, once_each_b n l = true ->
  length l = n /\ forall i, (i < n)%nat -> count_n (N.of_nat i) l = 1%nat.
Proof.
  intros n l H. apply andb_true_iff in H as [Hl Hc]. apply Nat.eqb_eq in Hl.
  split; [exact Hl|]. intros i Hi. rewrite forallb_forall in Hc.
  apply Nat.eqb_eq, Hc, in_seq. lia.
Qed.
