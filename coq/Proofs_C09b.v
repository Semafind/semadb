(* Proofs_C09b.v -- more lemmas for property C09 (model: Model_C09.v): a search run start-to-end while
   the writer is stopped inside its write transaction (the forced schedules of harness/c09forced.go),
   and the seeded defect "the writer releases the cache lock before the storage commit". *)
From Coq Require Import List NArith Arith Bool.
From Semadb Require Import Bytes Value Obs Model_C01 Model_C09 Proofs_C09.
Import ListNotations.
Open Scope nat_scope.

Lemma upd_nth_twice {A} n (x y : A) l : upd_nth n x (upd_nth n y l) = upd_nth n x l.
Proof. revert n; induction l as [|z l IH]; intros [|n]; simpl; auto. f_equal. apply IH. Qed.

Lemma run_reader_S cfg st r ph st' n :
  st_crashed st = false -> nth_error (st_rs st) r = Some ph -> step_reader cfg st r ph = Some st' ->
  run cfg (repeat (TReader r) (S n)) st = run cfg (repeat (TReader r) n) st'.
Proof. intros Hc Hn Hs. simpl. unfold exec, step. rewrite Hc, Hn, Hs. reflexivity. Qed.

Lemma run_reader_done cfg st r s o n :
  nth_error (st_rs st) r = Some (RDone s o) -> run cfg (repeat (TReader r) n) st = st.
Proof.
  intros Hn. induction n as [|n IH]; [reflexivity|]. simpl.
  replace (exec cfg st (TReader r)) with st; [exact IH|].
  unfold exec, step. destruct (st_crashed st); [reflexivity|]. rewrite Hn. reflexivity.
Qed.

(* reader r has finished with outcome o on snapshot s, nothing else touched -- except that a failing
   search callback (FailOther) scraps the cache: the manager entry is deleted *)
Definition search_done (st : state) (r : nat) (s : snapshot) (o : outcome) : state :=
  mkState (st_hist st) (st_cur st) (st_heap st)
          (match o with FailOther => None | _ => st_mgr st end)
          (st_wph st) (st_todo st) (upd_nth r (RDone s o) (st_rs st)) false.

Lemma search_done_over st r ph s o : search_done (set_reader st r ph) r s o = search_done st r s o.
Proof. unfold search_done. simpl. rewrite upd_nth_twice. reflexivity. Qed.

(* a search on a private cache ends with the sequential answer on the reader's own snapshot *)
Lemma private_search cfg r s p :
  forall st c,
    st_crashed st = false -> nth_error (st_rs st) r = Some (RUse s (Private c) p) ->
    c_handle c = HReader r -> coherent cfg (snd s) c ->
    exists n, run cfg (repeat (TReader r) n) st = search_done st r s (answer cfg p (snd s)).
Proof.
  induction p as [nodes| |p Hp IH] using (prog_run_ind (cfg_keys cfg) (cfg_index cfg (snd s)));
    intros st c Hcr Hn Hh Hco; pose proof (nth_error_lt _ _ _ Hn) as Hl.
  - exists 2. rewrite (run_reader_S _ _ _ _ _ _ Hcr Hn eq_refl).
    rewrite (run_reader_S cfg (set_reader st r (RLookup s nodes)) r _ _ 0 Hcr (nth_upd_eq r _ _ Hl) eq_refl).
    unfold answer, search_done, set_reader. simpl. rewrite upd_nth_twice, Hcr.
    destruct (lookup_all (snd s) nodes); reflexivity.
  - exists 1. rewrite (run_reader_S _ _ _ _ _ _ Hcr Hn eq_refl).
    unfold search_done, fail_search, set_reader. simpl. rewrite Hcr. reflexivity.
  - destruct (own_read cfg st r s _ c p Hn eq_refl Hh Hco Hp) as (c' & Es & Hh' & Hco').
    destruct (IH (put_cache st r s (Private c) c' _) c' Hcr (nth_upd_eq r _ (st_rs st) Hl) Hh' Hco') as [n Hrun].
    exists (S n). rewrite (run_reader_S _ _ _ _ _ _ Hcr Hn Es), Hrun, answer_next. apply search_done_over.
Qed.

(* an idle reader that finds the registered cache write-locked takes a private cold cache *)
Lemma locked_search cfg st cid r p :
  st_crashed st = false -> st_mgr st = Some cid -> wheld st cid = true ->
  nth_error (st_rs st) r = Some (RIdle p) ->
  exists n0, forall n, n0 <= n ->
    run cfg (repeat (TReader r) n) st = search_done st r (cur_snapshot st) (answer cfg p (st_cur st)).
Proof.
  intros Hcr Hm Hw Hn. pose proof (nth_error_lt _ _ _ Hn) as Hl.
  set (s := cur_snapshot st). set (st1 := set_reader st r (RBegun s p)).
  assert (Hl1 : r < length (st_rs st1)) by (simpl; rewrite upd_nth_length; exact Hl).
  set (st2 := set_reader st1 r (RUse s (Private (empty_cache (HReader r))) p)).
  assert (E2 : step_reader cfg st1 r (RBegun s p) = Some st2).
  { simpl. rewrite Hm. change (wheld st1 cid) with (wheld st cid). rewrite Hw. reflexivity. }
  destruct (private_search cfg r s p st2 (empty_cache (HReader r)) Hcr
              (nth_upd_eq r _ (st_rs st1) Hl1) eq_refl (coherent_empty cfg (snd s) (HReader r))) as [n Hrun].
  exists (S (S n)). intros m Hle. apply Nat.le_exists_sub in Hle as (k & -> & _). rewrite Nat.add_comm, repeat_app, run_app.
  rewrite (run_reader_S _ _ _ _ _ _ Hcr Hn eq_refl), (run_reader_S cfg st1 r _ _ _ Hcr (nth_upd_eq r _ _ Hl) E2), Hrun.
  unfold st2, st1. rewrite !search_done_over. eapply run_reader_done. simpl. apply nth_upd_eq. exact Hl.
Qed.

Definition from_committed (cfg : config) (st : state) (k : key) (e : entry) : Prop :=
  exists ps, In ps (committed st) /\ idx_get (cfg_index cfg ps) k = Some e.

(* where a cached item comes from: the index of a committed version -- or, for the cache object the writer
   has write-locked inside its transaction, the index of the version it is about to commit *)
Definition item_src (cfg : config) (st : state) (cid : nat) (k : key) (e : entry) : Prop :=
  from_committed cfg st k e \/
  (exists nx, st_wph st = WInTx cid (Some nx) /\ idx_get (cfg_index cfg nx) k = Some e).
Definition inv_items (cfg : config) (st : state) : Prop :=
  forall cid c k e, nth_error (st_heap st) cid = Some c -> idx_get (c_items c) k = Some e -> item_src cfg st cid k e.

Lemma inv_items_same cfg st st' :
  st_heap st' = st_heap st -> (forall i k e, item_src cfg st i k e -> item_src cfg st' i k e) ->
  inv_items cfg st -> inv_items cfg st'.
Proof. intros E Hm I i c k e Hc He. rewrite E in Hc. eauto. Qed.

Lemma inv_items_store cfg st st' cid c' :
  stored (st_heap st) cid c' (st_heap st') -> (forall i k e, item_src cfg st i k e -> item_src cfg st' i k e) ->
  (forall k e, idx_get (c_items c') k = Some e -> item_src cfg st' cid k e) ->
  inv_items cfg st -> inv_items cfg st'.
Proof.
  intros [S1 S2] Hm Hnew I i c k e Hc He. destruct (Nat.eq_dec i cid) as [->|Hne].
  - rewrite S1 in Hc. injection Hc as <-. auto.
  - rewrite (S2 _ Hne) in Hc. eauto.
Qed.

Lemma acquired_items cfg st cid c k e :
  inv_items cfg st -> acquired st cid c -> idx_get (c_items c) k = Some e -> item_src cfg st cid k e.
Proof. intros I [cid' c' _ Eh|h _]; [apply I; exact Eh|discriminate]. Qed.

Lemma refill_items cfg oih c c' k e :
  refill cfg oih c c' -> idx_get (c_items c') k = Some e ->
  idx_get (c_items c) k = Some e \/ exists ih, oih = Some ih /\ idx_get ih k = Some e.
Proof.
  intros [|ih k0 e0 E Hk|ih E]; simpl; auto.
  - destruct (N.eqb k k0) eqn:Ek; auto. apply N.eqb_eq in Ek. subst k0. intros X. injection X as <-. eauto.
  - rewrite idx_get_app, idx_get_scan. unfold scan_view.
    destruct (existsb (N.eqb k) (cfg_keys cfg)), (idx_get (c_items c) k); auto.
    destruct (idx_get ih k) eqn:Ei; [|discriminate]. intros X. injection X as <-. eauto.
Qed.

Lemma handle_committed cfg st h ih :
  inv_snap cfg st -> handle_index cfg st h = Some ih -> exists ps, In ps (committed st) /\ ih = cfg_index cfg ps.
Proof.
  intros Is H. destruct (handle_live _ _ _ _ H) as (r & ph & s & En & Ef & ->).
  exists (snd s). split; [|reflexivity]. eapply nth_error_In. apply (Is r ph En).
  destruct ph; simpl in *; congruence.
Qed.

Lemma step_reader_inv_items cfg st r ph st' :
  step_reader cfg st r ph = Some st' -> inv_snap cfg st -> inv_items cfg st -> inv_items cfg st'.
Proof.
  intros H Is I. destruct (step_reader_frame _ _ _ _ _ H) as (F1 & F2 & F3 & _).
  assert (Hm : forall i k e, item_src cfg st i k e -> item_src cfg st' i k e).
  { unfold item_src, from_committed, committed. rewrite F1, F2, F3. auto. }
  assert (Hsame : st_heap st' = st_heap st -> inv_items cfg st') by (intros E; eapply inv_items_same; eauto).
  destruct ph as [p|s p|s cr p|s nodes|s o]; [injection H as <-; apply Hsame; reflexivity| | |
                                               injection H as <-; apply Hsame; reflexivity|discriminate].
  - (* acquire: the handle changes, the items do not *)
    destruct (step_begun _ _ _ _ _ _ H) as [cid Em Ew|cid c h' Ha Hw Hst]; [apply Hsame; reflexivity|].
    eapply inv_items_store; [exact Hst|exact Hm| |exact I]. intros k e He. eapply Hm, acquired_items; eauto.
  - (* search: what a read adds comes through a live handle, from the index of its owner's snapshot *)
    destruct (step_use _ _ _ _ _ _ _ H) as (c & Eg & U). destruct U as [c' p' Hr|nodes|o _|_]; try (apply Hsame; reflexivity).
    assert (Hnew : forall k e, idx_get (c_items c') k = Some e -> idx_get (c_items c) k = Some e \/ from_committed cfg st k e).
    { intros k e He. destruct (refill_items _ _ _ _ _ _ Hr He) as [X|(ih & Ei & X)]; [auto|right].
      destruct (handle_committed _ _ _ _ Is Ei) as (ps & Hin & ->). exists ps. auto. }
    destruct cr as [cid|pc]; [|apply Hsame; reflexivity].
    eapply inv_items_store; [exact (stored_upd _ _ _ c' Eg)|exact Hm| |exact I].
    intros k e He. apply Hm. destruct (Hnew _ _ He) as [X|X]; [eapply I; eauto|left; exact X].
Qed.

Lemma w_update_src old new c k e :
  idx_get (c_items (w_update old new c)) k = Some e -> idx_get (c_items c) k = Some e \/ idx_get new k = Some e.
Proof. rewrite get_w_update. destruct (changed old new k); auto. Qed.

Lemma step_writer_inv_items cfg st st' :
  step_writer cfg st = Some st' -> inv_items cfg st -> inv_items cfg st'.
Proof.
  intros H I. destruct (step_writer_inv _ _ _ H) as [b rest cid c h' nx Ew _ _ Ha _ Hst|cw nx Ew|cw ok Ew].
  - (* lock and update: everything cached so far is committed, the update adds items of the next version *)
    assert (Hm : forall i k e, item_src cfg st i k e -> from_committed cfg st k e).
    { intros i k e [X|(nx0 & X & _)]; [exact X|congruence]. }
    eapply inv_items_store; [exact Hst|intros i k e X; left; exact (Hm _ _ _ X)| |exact I].
    intros k e He. destruct nx as [p'|]; simpl in He.
    + apply w_update_src in He. destruct He as [He|He]; [left; eapply Hm, acquired_items; eauto|].
      right. exists p'. split; [reflexivity|exact He].
    + left. eapply Hm, acquired_items; eauto.
  - (* storage commit: the next version becomes a committed one *)
    apply (inv_items_same cfg st); [reflexivity| |exact I].
    intros i k e [(ps & Hin & X)|(nx0 & Hx & X)]; left; unfold from_committed, committed; simpl.
    + exists ps. split; [apply in_or_app; left; exact Hin|exact X].
    + rewrite Ew in Hx. injection Hx as _ ->. exists nx0. split; [apply in_or_app; right; left; reflexivity|exact X].
  - apply (inv_items_same cfg st); [reflexivity| |exact I].
    intros i k e [X|(nx0 & Hx & _)]; [left; exact X|congruence].
Qed.

Lemma step_inv_items cfg st t st' :
  step cfg st t = Some st' -> inv_snap cfg st /\ inv_items cfg st -> inv_snap cfg st' /\ inv_items cfg st'.
Proof.
  intros H [Is I]. split; [eapply step_inv_snap; eauto|]. destruct (step_inv _ _ _ _ H) as [_ X]. destruct t as [|r|].
  - eapply step_writer_inv_items; eauto.
  - destruct X as (ph & _ & X). eapply step_reader_inv_items; eauto.
  - subst st'. exact I.
Qed.

(* in every state reachable from a cold start by ANY schedule: every item of every cache object of the heap
   is an entry of the index of a COMMITTED version -- unless that object is the one the writer holds
   write-locked inside its transaction (st_wph = WInTx cid _), where it may also be an entry of the version
   about to be committed.  The writer releases the lock only after the storage commit (WCommitted -> WIdle),
   so no reader can acquire a cache that is ahead of the committed versions. *)
Lemma c09_lock_covers_commit cfg p0 bs progs sched cid c k e :
  let st := run cfg sched (init p0 bs progs) in
  nth_error (st_heap st) cid = Some c -> idx_get (c_items c) k = Some e ->
  (exists ps, In ps (committed st) /\ idx_get (cfg_index cfg ps) k = Some e) \/
  (exists nx, st_wph st = WInTx cid (Some nx) /\ idx_get (cfg_index cfg nx) k = Some e).
Proof.
  apply (run_invariant cfg _ (step_inv_items cfg) sched (init p0 bs progs)).
  split; [apply init_inv_snap|]. intros [|i] c0 k0 e0 Hc; discriminate.
Qed.

Open Scope N_scope.
(* the version the witness batch commits *)
Definition w_p1 : pstore := [(2, (w_id2, w_doc)); (1, (w_id1, w_doc))].
(* a batch that is rejected on w_p0 (the id exists): rolls back *)
Definition w_batch_bad : batch := BInsert [(w_id1, w_doc)].
Close Scope N_scope.

(* NOT a state of the model: the shared cache already holds the index of the next version w_p1, the
   storage has not committed it (the only committed version is w_p0) and the cache is NOT write-locked *)
Definition w_early_unlock : state :=
  mkState [] w_p0 [w_update (toy_index w_p0) (toy_index w_p1) (empty_cache HWriter)] (Some 0)
          WIdle [] [RIdle w_q_get] false.

(* its cache lists node 2 under key 0; no committed version does and no writer holds the lock *)
Lemma early_unlock_unreachable g p0 bs progs sched : run (toy_cfg g) sched (init p0 bs progs) <> w_early_unlock.
Proof.
  intros Heq. pose proof (c09_lock_covers_commit (toy_cfg g) p0 bs progs sched 0
                            (w_update (toy_index w_p0) (toy_index w_p1) (empty_cache HWriter)) 0%N [2%N; 1%N]) as L.
  cbv zeta in L. rewrite Heq in L. destruct (L eq_refl eq_refl) as [(ps & [<-|[]] & Hp)|(nx & Hx & _)]; discriminate.
Qed.

From Semadb Require TxOrder.

(* the events of shard.go's write path that one step of the model's writer stands for; the three steps of a
   batch, put end to end, give the transaction bracket gen_tx_order.py reads off shard.go (Props_C09.c09_writer_follows_bracket) *)
Definition step_events (before after : wphase) : list TxOrder.tx_event :=
  match before, after with
  | WIdle, WInTx _ _ => [TxOrder.NewCacheTx; TxOrder.StorageBegin true; TxOrder.Callback]
  | WInTx _ _, WCommitted _ _ => [TxOrder.StorageEnd]
  | WCommitted _ _, WIdle => [TxOrder.CacheCommit]
  | _, _ => []
  end.
