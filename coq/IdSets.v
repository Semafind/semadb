(* IdSets.v -- the boolean tests and set operations on id lists of Model_C02.v (mem_bytes, nodup_ids,
   ids_inter, ids_union) against In and NoDup. *)
From Coq Require Import List Bool.
From Semadb Require Import ListFacts Bytes Model_C02.
Import ListNotations.

Lemma mem_bytes_In x l : mem_bytes x l = true <-> In x l.
Proof. apply existsb_bytes_In. Qed.

Lemma mem_bytes_false x l : mem_bytes x l = false <-> ~ In x l.
Proof. apply existsb_bytes_notIn. Qed.

Lemma mem_bytes_filter x f l : mem_bytes x (filter f l) = mem_bytes x l && f x.
Proof. apply eq_true_iff_eq. rewrite andb_true_iff, !mem_bytes_In, filter_In. tauto. Qed.

Lemma nodup_ids_NoDup l : nodup_ids l = true <-> NoDup l.
Proof. exact (nodup_by_NoDup mem_bytes_In l). Qed.

Lemma mem_ids_inter x a b : mem_bytes x (ids_inter a b) = mem_bytes x a && mem_bytes x b.
Proof. apply mem_bytes_filter. Qed.

Lemma mem_ids_union x a b : mem_bytes x (ids_union a b) = mem_bytes x a || mem_bytes x b.
Proof.
  unfold ids_union, mem_bytes at 1. rewrite existsb_app. change (existsb (bytes_eqb x)) with (mem_bytes x).
  rewrite mem_bytes_filter. now destruct (mem_bytes x a), (mem_bytes x b).
Qed.

Lemma ids_inter_In x a b : In x (ids_inter a b) <-> In x a /\ In x b.
Proof. now rewrite <- !mem_bytes_In, mem_ids_inter, andb_true_iff. Qed.

Lemma ids_union_In x a b : In x (ids_union a b) <-> In x a \/ In x b.
Proof. now rewrite <- !mem_bytes_In, mem_ids_union, orb_true_iff. Qed.

Lemma ids_union_NoDup a b : NoDup a -> NoDup b -> NoDup (ids_union a b).
Proof.
  intros Ha Hb. apply NoDup_app_iff. repeat split; [exact Ha|now apply NoDup_filter|].
  intros x Hx H. apply filter_In in H as [_ H]. apply mem_bytes_In in Hx. now rewrite Hx in H.
Qed.
