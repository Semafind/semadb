(* Proofs_C08.v -- the write-back item cache (property C08).
   A cache c over a bucket g stands for the finite map absmap c g.  The
   invariant inv is a condition on each entry (entry_ok): what the bucket must
   hold, or the item satisfy, for the entry to be written correctly by the next
   Flush.  Reads only add clean copies of bucket items (warmed).  Ids own
   disjoint keys, so Flush is two independent maps over the entries: the
   actions written (flush_acts) and the entries kept (flush_entry).  Two
   executions of one history agree because each refines the same map
   (run_spec, sim_txs). *)
From Coq Require Import List NArith PeanoNat Bool Lia Permutation Eqdep_dec.
From Coq Require Import ZifyBool ZifyN ZifyNat.
From Semadb Require Import ListFacts Bytes U64 KeyLayout Model_C19 Proofs_C19 Model_ItemCache.
Import ListNotations.
Open Scope N_scope.

Ltac csplit := repeat match goal with |- _ /\ _ => split end.

Lemma kv_apply_local acts : forall g g' k, g k = g' k -> kv_apply acts g k = kv_apply acts g' k.
Proof.
  induction acts as [|[k0 a] r IH]; intros g g' k H; cbn [kv_apply]; [exact H|].
  apply IH. unfold kv_upd. now destruct (bytes_eqb k0 k).
Qed.

Lemma kv_apply_frame acts : forall g k, (forall a, ~ In (k, a) acts) -> kv_apply acts g k = g k.
Proof.
  induction acts as [|[k0 a] r IH]; intros g k H; cbn [kv_apply]; [reflexivity|].
  rewrite IH by (intros a' Hin; apply (H a'); now right).
  unfold kv_upd. destruct (bytes_eqb k0 k) eqn:E; [|reflexivity].
  apply bytes_eqb_eq in E. subst. exfalso. apply (H a). now left.
Qed.

Lemma kv_apply_app a1 a2 g : kv_apply (a1 ++ a2) g = kv_apply a2 (kv_apply a1 g).
Proof. revert g; induction a1 as [|[k a] r IH]; intros g; cbn [app kv_apply]; [reflexivity|apply IH]. Qed.

Lemma bk_apply_app B a1 a2 : forall b, bk_apply B (a1 ++ a2) b = bk_apply B a2 (bk_apply B a1 b).
Proof. induction a1 as [|[k [v|]] r IH]; intros b; cbn [app bk_apply]; [reflexivity|apply IH|apply IH]. Qed.

Lemma bk_apply_get B (L : BucketLaws B) acts : forall b k,
  bk_get B (bk_apply B acts b) k = kv_apply acts (bk_get B b) k.
Proof.
  induction acts as [|[k0 [v|]] r IH]; intros b k; cbn [bk_apply kv_apply]; [reflexivity| |].
  - rewrite IH. apply kv_apply_local. unfold kv_upd. apply (bl_get_put B L).
  - rewrite IH. apply kv_apply_local. unfold kv_upd. apply (bl_get_del B L).
Qed.

Lemma kv_dels_in ks : forall g k, In k ks \/ g k = None -> kv_apply (map (fun k => (k, None)) ks) g k = None.
Proof.
  induction ks as [|k0 r IH]; intros g k H; cbn [map kv_apply]; [now destruct H|].
  apply IH. unfold kv_upd. destruct (bytes_eqb k0 k) eqn:E; [now right|].
  destruct H as [[->|H]|H]; auto. now rewrite bytes_eqb_refl in E.
Qed.

(* al_get reads an association list as aget does, with the arguments of the key test swapped *)
Lemma al_get_aget b k : al_get b k = aget bytes_eqb k b.
Proof. induction b as [|[k0 v0] r IH]; cbn; [|rewrite IH, (bytes_eqb_sym k0 k)]; reflexivity. Qed.

Lemma al_get_del k b k' : al_get (al_del k b) k' = if bytes_eqb k k' then None else al_get b k'.
Proof.
  rewrite !al_get_aget, (bytes_eqb_sym k k'). unfold al_del. rewrite <- adel_filter. apply aget_adel, bytes_eqb_spec.
Qed.

Lemma al_get_app b1 b2 k : al_get (b1 ++ b2) k = match al_get b1 k with Some v => Some v | None => al_get b2 k end.
Proof. rewrite !al_get_aget. apply aget_app. Qed.

Lemma al_get_in b k : al_get b k <> None <-> In k (map fst b).
Proof. rewrite al_get_aget. apply aget_keys, bytes_eqb_spec. Qed.

Lemma mem_bytes_b_in k l : mem_bytes_b k l = true <-> In k l.
Proof. exact (mem_by_In bytes_eqb_eq k l). Qed.
Lemma dedup_in l k : In k (dedup l) <-> In k l.
Proof. exact (dedup_by_In mem_bytes_b_in k l). Qed.
Lemma dedup_nodup l : NoDup (dedup l).
Proof. exact (dedup_by_NoDup mem_bytes_b_in l). Qed.

Lemma AL_laws : BucketLaws AL.
Proof.
  constructor; cbn [AL bk bk_get bk_put bk_del bk_keys].
  - intros b k v k'. unfold al_put_front. cbn [al_get].
    destruct (bytes_eqb k k') eqn:E; [reflexivity|]. now rewrite al_get_del, E.
  - intros b k k'. apply al_get_del.
  - intros b k. rewrite dedup_in. symmetry. apply al_get_in.
  - intros b. apply dedup_nodup.
Qed.

Lemma AL2_laws : BucketLaws AL2.
Proof.
  constructor; cbn [AL2 bk bk_get bk_put bk_del bk_keys].
  - intros b k v k'. unfold al_put_back. rewrite al_get_app, al_get_del. cbn [al_get].
    destruct (bytes_eqb k k') eqn:E; [reflexivity|]. now destruct (al_get b k').
  - intros b k k'. apply al_get_del.
  - intros b k. rewrite <- in_rev, dedup_in. symmetry. apply al_get_in.
  - intros b. apply NoDup_rev. apply dedup_nodup.
Qed.

Lemma ic_lookup_aget {K V} (eqb : K -> K -> bool) i (l : list (K * V)) : ic_lookup eqb i l = aget eqb i l.
Proof. induction l as [|[j e] r IH]; cbn; [|rewrite IH]; reflexivity. Qed.
Lemma ic_set_aupd {K V} (eqb : K -> K -> bool) i e (l : list (K * V)) : ic_set eqb i e l = aupd eqb i e l.
Proof. induction l as [|[j e'] r IH]; cbn; [|rewrite IH]; reflexivity. Qed.

Section Generic.
Variable S : Storable.
Variable B : BucketImpl.
Variable P : StorableSpec S.
Hypothesis LB : BucketLaws B.
Hypothesis LS : StorableLaws S P.

Notation id := (st_id S).
Notation item := (st_item S).
Notation lookup := (lookup S).
Notation setit := (setit S).
Notation norm := (sp_norm P).
Notation inv := (inv S P).
Notation settled := (settled S P).
Notation absmap := (absmap S).
Notation nabs := (nabs S P).
Notation amap_eq := (amap_eq S).

Let eqs := sl_eqb S P LS.

Lemma eqb_id_spec i j : reflect (i = j) (st_eqb S i j).
Proof. apply iff_reflect. symmetry. apply eqs. Qed.
Lemma eqb_id_refl i : st_eqb S i i = true.
Proof. now apply eqs. Qed.
Lemma eqb_id_neq i j : i <> j -> st_eqb S i j = false.
Proof. intros H. now destruct (eqb_id_spec i j). Qed.
Lemma id_dec (i j : id) : {i = j} + {i <> j}.
Proof. destruct (eqb_id_spec i j); [now left|now right]. Qed.

Lemma lookup_set i j e l : lookup j (setit i e l) = if st_eqb S j i then Some e else lookup j l.
Proof.
  unfold Model_ItemCache.lookup, Model_ItemCache.setit. rewrite !ic_lookup_aget, ic_set_aupd.
  apply aget_aupd, eqb_id_spec.
Qed.
Lemma lookup_set_same i e l : lookup i (setit i e l) = Some e.
Proof. now rewrite lookup_set, eqb_id_refl. Qed.
Lemma lookup_set_other i j e l : i <> j -> lookup j (setit i e l) = lookup j l.
Proof. intros H. rewrite lookup_set, eqb_id_neq; [reflexivity|congruence]. Qed.

Lemma lookup_none i (l : list (id * entry S)) : lookup i l = None <-> ~ In i (map fst l).
Proof. unfold Model_ItemCache.lookup. rewrite ic_lookup_aget. apply aget_notin, eqb_id_spec. Qed.
Lemma lookup_in i e l : lookup i l = Some e -> In (i, e) l.
Proof. unfold Model_ItemCache.lookup. rewrite ic_lookup_aget. apply aget_In, eqb_id_spec. Qed.
Lemma in_lookup i e l : NoDup (map fst l) -> In (i, e) l -> lookup i l = Some e.
Proof. unfold Model_ItemCache.lookup. rewrite ic_lookup_aget. apply In_aget, eqb_id_spec. Qed.

Lemma setit_nodup i e l : NoDup (map fst l) -> NoDup (map fst (setit i e l)).
Proof. unfold Model_ItemCache.setit. rewrite ic_set_aupd. apply aupd_NoDup, eqb_id_spec. Qed.

(* what ForEach lists (f = entry_abs) and what Flush keeps (f = flush_entry) *)
Definition keep {W} (f : entry S -> option W) (l : list (id * entry S)) : list (id * W) :=
  flat_map (fun x => match f (snd x) with Some w => [(fst x, w)] | None => [] end) l.

Lemma keep_in {W} (f : entry S -> option W) l i w : NoDup (map fst l) ->
  (In (i, w) (keep f l) <-> exists e, lookup i l = Some e /\ f e = Some w).
Proof.
  intros Hnd. unfold keep. rewrite in_flat_map. split.
  - intros ([j e] & Hx & Hin). cbn [fst snd] in Hin. destruct (f e) eqn:Ef; [|destruct Hin].
    destruct Hin as [[= -> ->]|[]]. exists e. split; [now apply in_lookup|exact Ef].
  - intros (e & E & Hf). exists (i, e). split; [now apply lookup_in|]. cbn [fst snd]. rewrite Hf. now left.
Qed.

Lemma keep_fst {W} (f : entry S -> option W) l i : In i (map fst (keep f l)) -> In i (map fst l).
Proof.
  intros H. apply in_map_iff in H. destruct H as ([i' w] & <- & H). apply in_flat_map in H.
  destruct H as ([j e] & Hx & Hin). cbn [fst snd] in Hin. destruct (f e); [|destruct Hin].
  destruct Hin as [[= <- _]|[]]. apply in_map_iff. now exists (j, e).
Qed.

Lemma keep_nodup {W} (f : entry S -> option W) l : NoDup (map fst l) -> NoDup (map fst (keep f l)).
Proof.
  induction l as [|[j e] r IH]; intros H; [constructor|]. inversion H as [|? ? Hn Hr]; subst.
  unfold keep. cbn [flat_map fst snd]. fold (keep f r). destruct (f e); [|now apply IH].
  constructor; [|now apply IH]. intros Hin. apply Hn. exact (keep_fst f r j Hin).
Qed.

Definition entry_ok (g : kv) (i : id) (e : entry S) : Prop :=
  match e with
  | (v, d, del) =>
      (del = false -> d = false -> st_self_dirty S v = false -> st_read S i g = Some (norm v)) /\
      (del = false -> d = true \/ st_self_dirty S v = true -> sp_valid P i v g) /\
      (sp_deletable P = false -> del = false)
  end.

Definition entry_abs (e : entry S) : option item :=
  match e with (v, _, del) => if del then None else Some v end.

Lemma inv_entry_ok c g i e : inv c g -> lookup i (c_items c) = Some e -> entry_ok g i e.
Proof.
  intros I E. destruct e as [[v d] del]. unfold entry_ok. csplit.
  - intros -> -> Hs. exact (inv_clean S P c g I i v E Hs).
  - intros -> Hd. exact (inv_valid S P c g I i v d E Hd).
  - intros Hn. destruct del; [|reflexivity]. exfalso. exact (inv_del S P c g I Hn i v d E).
Qed.

Lemma inv_intro c g :
  NoDup (map fst (c_items c)) -> (forall i e, lookup i (c_items c) = Some e -> entry_ok g i e) ->
  (c_all c = true -> forall k i, g k <> None -> st_id_from_key S k = Some i -> lookup i (c_items c) <> None) ->
  inv c g.
Proof.
  intros Hnd He Ha. constructor; [exact Hnd| | |exact Ha|].
  - intros i v E. exact (proj1 (He i _ E) eq_refl eq_refl).
  - intros i v d E. exact (proj1 (proj2 (He i _ E)) eq_refl).
  - intros Hn i v d E. discriminate (proj2 (proj2 (He i _ E)) Hn).
Qed.

Lemma absmap_lookup c g i : absmap c g i = match lookup i (c_items c) with Some e => entry_abs e | None => st_read S i g end.
Proof. unfold Model_ItemCache.absmap. destruct (lookup i (c_items c)) as [[[v d] [|]]|]; reflexivity. Qed.

Lemma nabs_absmap c c' g g' : (forall j, absmap c' g' j = absmap c g j) -> forall j, nabs c' g' j = nabs c g j.
Proof. intros H j. unfold Model_ItemCache.nabs. now rewrite H. Qed.

Lemma inv_set c g i e :
  inv c g -> entry_ok g i e -> inv (mkCache (setit i e (c_items c)) (c_all c)) g.
Proof.
  intros I He. apply inv_intro; cbn [c_items c_all].
  - apply setit_nodup. exact (inv_nodup S P c g I).
  - intros j e' E. destruct (id_dec i j) as [<-|Hne].
    + rewrite lookup_set_same in E. now injection E as <-.
    + rewrite lookup_set_other in E by exact Hne. exact (inv_entry_ok c g j e' I E).
  - intros Ha k j Hk Hj. destruct (id_dec i j) as [<-|Hne].
    + rewrite lookup_set_same. discriminate.
    + rewrite lookup_set_other by exact Hne. exact (inv_all S P c g I Ha k j Hk Hj).
Qed.

Lemma absmap_set c g i e j :
  absmap (mkCache (setit i e (c_items c)) (c_all c)) g j = if st_eqb S i j then entry_abs e else absmap c g j.
Proof.
  rewrite !absmap_lookup. cbn [c_items]. destruct (id_dec i j) as [<-|Hne].
  - now rewrite lookup_set_same, eqb_id_refl.
  - now rewrite lookup_set_other, eqb_id_neq.
Qed.

(* what a read does to the cache: it gains clean copies of what the bucket holds *)
Definition warmed (g : kv) (c c' : cache S) : Prop :=
  inv c' g /\ (forall j, absmap c' g j = absmap c g j) /\ (settled c g -> settled c' g).

Lemma warmed_refl g c : inv c g -> warmed g c c.
Proof. intros I. split; [exact I|]. split; auto. Qed.

Lemma warmed_trans g c c1 c2 : warmed g c c1 -> warmed g c1 c2 -> warmed g c c2.
Proof.
  intros (_ & A1 & S1) (I2 & A2 & S2). split; [exact I2|]. split; [|auto].
  intros j. now rewrite A2.
Qed.

Lemma warmed_add c g i w :
  inv c g -> lookup i (c_items c) = None -> st_read S i g = Some w ->
  warmed g c (mkCache (setit i (w, false, false) (c_items c)) (c_all c)).
Proof.
  intros I E R. pose proof (sl_read_normal S P LS i g w R) as Hn. split; [|split].
  - apply inv_set; [exact I|]. unfold entry_ok. csplit; [now rewrite Hn| |reflexivity].
    intros _ [H|H]; [discriminate|]. rewrite <- Hn, (sl_norm_clean S P LS) in H. discriminate.
  - intros j. rewrite absmap_set. destruct (st_eqb S i j) eqn:Eq; [|reflexivity].
    apply eqs in Eq. subst j. rewrite absmap_lookup, E. now rewrite R.
  - intros Hs j v' d del Ej. cbn [c_items] in Ej. destruct (id_dec i j) as [<-|Hne].
    + rewrite lookup_set_same in Ej. injection Ej as <- <- <-. now rewrite Hn.
    + rewrite lookup_set_other in Ej by exact Hne. exact (Hs j v' d del Ej).
Qed.

Lemma get_spec c b i r c' :
  let g := bk_get B b in
  inv c g -> c_get S B i c b = (r, c') -> r = absmap c g i /\ warmed g c c'.
Proof.
  intros g I. unfold c_get. rewrite absmap_lookup.
  destruct (lookup i (c_items c)) as [[[v d] [|]]|] eqn:E.
  - intros [= <- <-]. split; [reflexivity|now apply warmed_refl].
  - intros [= <- <-]. split; [reflexivity|now apply warmed_refl].
  - fold g. destruct (st_read S i g) as [w|] eqn:R; intros [= <- <-]; (split; [reflexivity|]).
    + now apply warmed_add.
    + now apply warmed_refl.
Qed.

Lemma found_ext m m' ids : amap_eq m m' -> found S m ids = found S m' ids.
Proof. intros H. unfold found. apply flat_map_ext. intros i. now rewrite H. Qed.

Lemma get_many_spec ids : forall c b l c',
  let g := bk_get B b in
  inv c g -> c_get_many S B ids c b = (l, c') -> l = found S (absmap c g) ids /\ warmed g c c'.
Proof.
  induction ids as [|i r IH]; intros c b l c' g I; cbn [c_get_many found flat_map].
  - intros [= <- <-]. split; [reflexivity|now apply warmed_refl].
  - destruct (c_get S B i c b) as [x c1] eqn:G.
    destruct (c_get_many S B r c1 b) as [xs c2] eqn:GM. intros [= <- <-].
    destruct (get_spec c b i x c1 I G) as (-> & W1).
    destruct (IH c1 b xs c2 (proj1 W1) GM) as (-> & W2). fold g in W1, W2 |- *.
    split; [|exact (warmed_trans g c c1 c2 W1 W2)].
    rewrite (found_ext _ _ r (proj1 (proj2 W1))). now destruct (absmap c g i).
Qed.

Lemma put_spec c g i v :
  inv c g -> sp_valid P i v g ->
  inv (c_put S i v c) g /\ (forall j, absmap (c_put S i v c) g j = if st_eqb S i j then Some v else absmap c g j).
Proof.
  intros I Hv. unfold c_put. split.
  - apply inv_set; [exact I|]. unfold entry_ok. csplit; auto. intros _ ?. discriminate.
  - intros j. now rewrite absmap_set.
Qed.

Lemma delete_spec c b i :
  let g := bk_get B b in
  inv c g -> sp_deletable P = true ->
  inv (c_delete S B i c b) g /\ (forall j, absmap (c_delete S B i c b) g j = if st_eqb S i j then None else absmap c g j).
Proof.
  intros g I Hd. unfold c_delete.
  assert (Hok : forall v d, entry_ok g i (v, d, true)).
  { intros v d. unfold entry_ok. csplit; try discriminate. intros H. congruence. }
  destruct (lookup i (c_items c)) as [[[v d] del]|] eqn:E.
  - split; [apply inv_set; auto|]. intros j. now rewrite absmap_set.
  - fold g. destruct (st_read S i g) as [w|] eqn:R.
    + split; [apply inv_set; auto|]. intros j. now rewrite absmap_set.
    + split; [exact I|]. intros j. destruct (st_eqb S i j) eqn:Eq; [|reflexivity].
      apply eqs in Eq. subst j. now rewrite absmap_lookup, E.
Qed.

Lemma get_cached c b i r c' : c_get S B i c b = (r, c') -> lookup i (c_items c') = None -> r = None.
Proof.
  unfold c_get. destruct (lookup i (c_items c)) as [[[v d] [|]]|] eqn:E.
  - now intros [= <- <-].
  - intros [= <- <-]. congruence.
  - destruct (st_read S i (bk_get B b)); intros [= <- <-]; [|reflexivity].
    cbn [c_items]. now rewrite lookup_set_same.
Qed.

Lemma modify_spec c b i f :
  let g := bk_get B b in
  inv c g ->
  (forall v, absmap c g i = Some v -> f v = v \/ (st_self_dirty S (f v) = true /\ sp_valid P i (f v) g)) ->
  inv (c_modify S B i f c b) g /\
  (forall j, absmap (c_modify S B i f c b) g j = if st_eqb S i j then option_map f (absmap c g i) else absmap c g j).
Proof.
  intros g I Hf. unfold c_modify.
  destruct (c_get S B i c b) as [r c1] eqn:G. cbn [snd].
  destruct (get_spec c b i r c1 I G) as (Hr & I1 & A1 & _). fold g in Hr, I1, A1.
  assert (Hsame : absmap c g i = None ->
            inv c1 g /\ forall j, absmap c1 g j = if st_eqb S i j then option_map f (absmap c g i) else absmap c g j).
  { intros Hn. split; [exact I1|]. intros j. rewrite A1. destruct (st_eqb S i j) eqn:Eq; [|reflexivity].
    apply eqs in Eq. subst j. now rewrite Hn. }
  pose proof (A1 i) as Ai. rewrite (absmap_lookup c1) in Ai.
  destruct (lookup i (c_items c1)) as [[[v d] [|]]|] eqn:E; cbn [entry_abs] in Ai.
  - apply Hsame. now symmetry.
  - split.
    + apply inv_set; [exact I1|]. pose proof (inv_entry_ok c1 g i _ I1 E) as (H1 & H2 & H3).
      destruct (Hf v (eq_sym Ai)) as [->|[Hsd Hval]]; unfold entry_ok; csplit; auto.
      intros _ _ Hs. congruence.
    + intros j. rewrite absmap_set. cbn [entry_abs]. rewrite <- Ai. cbn [option_map].
      destruct (st_eqb S i j); [reflexivity|apply A1].
  - (* not cached after Get: the bucket does not have it *)
    apply Hsame. rewrite <- Hr. exact (get_cached c b i r c1 G E).
Qed.

Lemma load_spec ks : forall l a ok l' g,
  inv (mkCache l a) g -> load_keys S ks g l = (ok, l') ->
  warmed g (mkCache l a) (mkCache l' a) /\
  (forall j e, lookup j l = Some e -> lookup j l' = Some e) /\
  (ok = true -> forall k i, In k ks -> st_id_from_key S k = Some i -> lookup i l' <> None) /\
  ((forall k i, In k ks -> st_id_from_key S k = Some i -> st_read S i g <> None) -> ok = true).
Proof.
  induction ks as [|k r IH]; intros l a ok l' g I; cbn [load_keys].
  - intros [= <- <-]. csplit; auto. now apply warmed_refl.
  - (* going on with l1, which extends l and has k's id *)
    assert (Step : forall l1, warmed g (mkCache l a) (mkCache l1 a) ->
              (forall j e, lookup j l = Some e -> lookup j l1 = Some e) ->
              (forall i, st_id_from_key S k = Some i -> lookup i l1 <> None) ->
              load_keys S r g l1 = (ok, l') ->
              warmed g (mkCache l a) (mkCache l' a) /\
              (forall j e, lookup j l = Some e -> lookup j l' = Some e) /\
              (ok = true -> forall k' i, In k' (k :: r) -> st_id_from_key S k' = Some i -> lookup i l' <> None) /\
              ((forall k' i, In k' (k :: r) -> st_id_from_key S k' = Some i -> st_read S i g <> None) -> ok = true)).
    { intros l1 W1 M1 C1 H. destruct (IH l1 a ok l' g (proj1 W1) H) as (W & M & C & K). csplit; auto.
      - exact (warmed_trans g _ _ _ W1 W).
      - intros Hok k' i [<-|Hin] Hi; [|now apply (C Hok k')].
        specialize (C1 i Hi). destruct (lookup i l1) as [e|] eqn:E1; [|congruence]. rewrite (M i e E1). discriminate.
      - intros Hall. apply K. intros k' i Hin. apply Hall. now right. }
    destruct (st_id_from_key S k) as [i|] eqn:Ek; [|apply Step; [now apply warmed_refl|auto|discriminate]].
    destruct (lookup i l) as [e|] eqn:El.
    { apply Step; [now apply warmed_refl|auto|]. intros i' [= <-]. congruence. }
    destruct (st_read S i g) as [w|] eqn:R.
    + apply Step.
      * exact (warmed_add (mkCache l a) g i w I El R).
      * intros j e Ej. rewrite lookup_set_other; [exact Ej|congruence].
      * intros i' [= <-]. rewrite lookup_set_same. discriminate.
    + intros [= <- <-]. csplit; auto; [now apply warmed_refl|discriminate|].
      intros Hall. exfalso. apply (Hall k i); [now left|exact Ek|exact R].
Qed.

Lemma live_items_keep l : live_items S l = keep entry_abs l.
Proof. apply flat_map_ext. intros [i [[v d] [|]]]; reflexivity. Qed.

Lemma listing_all c g :
  inv c g -> c_all c = true -> Enumerable S -> is_listing S (absmap c g) (live_items S (c_items c)).
Proof.
  intros I Ha En. pose proof (inv_nodup S P c g I) as Hnd. rewrite live_items_keep.
  split; [now apply keep_nodup|]. intros i v. rewrite keep_in by exact Hnd. rewrite absmap_lookup.
  destruct (lookup i (c_items c)) as [e|] eqn:E.
  - split; [now intros (e' & [= <-] & H)|eauto].
  - split; [now intros (e' & [=] & _)|]. intros R. exfalso.
    destruct (en_complete S En i g v R) as (k & Hk & Hi). exact (inv_all S P c g I Ha k i Hk Hi E).
Qed.

Lemma foreach_spec c b ok l c' :
  let g := bk_get B b in
  inv c g -> c_foreach S B c b = (ok, l, c') ->
  warmed g c c' /\ (Enumerable S -> ok = true /\ is_listing S (absmap c g) l).
Proof.
  intros g I. unfold c_foreach. destruct (c_all c) eqn:Ha.
  - intros [= <- <- <-]. split; [now apply warmed_refl|]. intros En. split; [reflexivity|]. exact (listing_all c g I Ha En).
  - destruct (load_keys S (bk_keys B b) (bk_get B b) (c_items c)) as [ok' l'] eqn:Ld. fold g in Ld.
    assert (I0 : inv (mkCache (c_items c) false) g) by (destruct c; cbn in *; now subst).
    (* absmap and settled do not look at the flag: A1 and S1 speak of c and of mkCache l' a for every a *)
    destruct (load_spec _ _ _ _ _ _ I0 Ld) as ((I1 & A1 & S1) & _ & C1 & K1).
    destruct ok'; intros [= <- <- <-].
    + assert (I2 : inv (mkCache l' true) g).
      { apply inv_intro; [exact (inv_nodup S P _ g I1)|exact (fun i e => inv_entry_ok _ g i e I1)|].
        intros _ k i Hg Hi. apply (C1 eq_refl k i); [now apply (bl_keys B LB)|exact Hi]. }
      split; [exact (conj I2 (conj A1 S1))|]. intros En. split; [reflexivity|].
      destruct (listing_all _ g I2 eq_refl En) as [N M]. split; [exact N|].
      intros i v. rewrite (M i v). now rewrite (A1 i : absmap (mkCache l' true) g i = absmap c g i).
    + split; [exact (conj I1 (conj A1 S1))|]. intros En. exfalso.
      assert (false = true); [apply K1|discriminate]. intros k i Hin Hi.
      apply (en_sound S En i g k); [now apply (bl_keys B LB)|exact Hi].
Qed.

Definition count_extra (l : list (id * entry S)) (g : kv) (k : bytes) : list (id * item) :=
  match st_id_from_key S k with
  | Some i => match lookup i l with
              | None => match st_read S i g with Some w => [(i, w)] | None => [] end
              | Some _ => []
              end
  | None => []
  end.

Lemma count_extra_in l g ks i w :
  In (i, w) (flat_map (count_extra l g) ks) <->
  exists k, In k ks /\ st_id_from_key S k = Some i /\ lookup i l = None /\ st_read S i g = Some w.
Proof.
  rewrite in_flat_map. split.
  - intros (k & Hk & Hin). exists k. split; [exact Hk|]. unfold count_extra in Hin.
    destruct (st_id_from_key S k) as [i'|]; [|destruct Hin].
    destruct (lookup i' l) eqn:El; [destruct Hin|].
    destruct (st_read S i' g) eqn:R; [|destruct Hin].
    destruct Hin as [[= <- <-]|[]]. auto.
  - intros (k & Hk & Hi & El & R). exists k. split; [exact Hk|].
    unfold count_extra. rewrite Hi, El, R. now left.
Qed.

Lemma count_extra_len l g ks : (forall k, In k ks -> g k <> None) -> Enumerable S ->
  length (flat_map (count_extra l g) ks) = length (filter (count_key S l) ks).
Proof.
  intros Hg En. induction ks as [|k r IH]; [reflexivity|].
  cbn [flat_map filter]. rewrite app_length, IH by (intros k' Hk'; apply Hg; now right).
  unfold count_extra, count_key. fold lookup.
  destruct (st_id_from_key S k) as [i|] eqn:Ei; [|reflexivity].
  destruct (lookup i l); [reflexivity|].
  destruct (st_read S i g) eqn:R; [reflexivity|].
  exfalso. apply (en_sound S En i g k); auto. apply Hg. now left.
Qed.

Lemma count_extra_nodup l g ks : NoDup ks -> (forall k, In k ks -> g k <> None) -> enum_unique S g ->
  NoDup (map fst (flat_map (count_extra l g) ks)).
Proof.
  intros Hnd Hg Hu. induction ks as [|k r IH]; [constructor|].
  inversion Hnd as [|? ? Hk Hr]; subst. cbn [flat_map]. rewrite map_app.
  assert (IHr : NoDup (map fst (flat_map (count_extra l g) r))) by (apply IH; [exact Hr|intros k' Hk'; apply Hg; now right]).
  unfold count_extra at 1.
  destruct (st_id_from_key S k) as [i|] eqn:Ei; [|exact IHr].
  destruct (lookup i l) eqn:El; [exact IHr|].
  destruct (st_read S i g) as [w|] eqn:R; [|exact IHr].
  cbn [map fst app]. constructor; [|exact IHr].
  intros Hin. apply in_map_iff in Hin. destruct Hin as ([i' w'] & E & Hin). cbn [fst] in E. subst i'.
  apply count_extra_in in Hin. destruct Hin as (k' & Hk' & Hi' & _ & _).
  assert (k = k') by (apply (Hu k k' i); auto; apply Hg; [now left|now right]).
  subst k'. contradiction.
Qed.

Lemma count_spec c b :
  let g := bk_get B b in
  inv c g -> Enumerable S -> enum_unique S g ->
  exists l, is_listing S (absmap c g) l /\ c_count S B c b = length l.
Proof.
  intros g I En Hu. pose proof (inv_nodup S P c g I) as Hnd.
  assert (Hg : forall k, In k (bk_keys B b) -> g k <> None) by (intros k Hk; now apply (bl_keys B LB)).
  exists (live_items S (c_items c) ++ flat_map (count_extra (c_items c) g) (bk_keys B b)).
  rewrite live_items_keep. split; [split|].
  - rewrite map_app. apply NoDup_app_iff. split; [|split].
    + now apply keep_nodup.
    + apply count_extra_nodup; auto. apply (bl_keys_nodup B LB).
    + intros i H1 H2. apply keep_fst in H1.
      apply in_map_iff in H2. destruct H2 as ([i' w] & <- & Hin).
      apply count_extra_in in Hin. destruct Hin as (k & _ & _ & El & _).
      apply lookup_none in El. contradiction.
  - intros i w. rewrite in_app_iff, count_extra_in, keep_in by exact Hnd. rewrite absmap_lookup.
    destruct (lookup i (c_items c)) as [e|] eqn:E.
    + split; [intros [(e' & [= <-] & H)|(k & _ & _ & [=] & _)]; exact H|]. intros H. left. eauto.
    + split; [intros [(e' & [=] & _)|(k & _ & _ & _ & R)]; exact R|]. intros R. right.
      destruct (en_complete S En i g w R) as (k & Hk & Hi). exists k. csplit; auto. now apply (bl_keys B LB).
  - unfold c_count. rewrite live_items_keep, app_length, count_extra_len by auto. lia.
Qed.

(* Flush treats the entries one by one: what it writes for an entry, and what
   it keeps of it.  Ids own disjoint keys, so on the keys of an id the new
   bucket is the old one after the actions of that id's entry alone. *)
Definition flush_acts (x : id * entry S) : list action :=
  match x with
  | (i, (v, d, del)) =>
      if del then st_dels S i else if d then st_writes S i v
      else if st_self_dirty S v then st_writes S i (st_clear_dirty S v) else []
  end.
Definition flush_entry (e : entry S) : option (entry S) :=
  match e with
  | (v, d, del) =>
      if del then None
      else Some (if d then v else if st_self_dirty S v then st_clear_dirty S v else v, false, false)
  end.

Lemma flush_items_eq l : forall b,
  flush_items S B l b = (keep flush_entry l, bk_apply B (flat_map flush_acts l) b).
Proof.
  induction l as [|[i [[v d] del]] r IH]; intros b; [reflexivity|].
  unfold keep. cbn [flush_items flat_map flush_acts flush_entry fst snd]. fold (keep flush_entry r).
  rewrite bk_apply_app. destruct del; [apply IH|]. destruct d; [now rewrite IH|].
  destruct (st_self_dirty S v); now rewrite IH.
Qed.

Lemma flush_acts_own i e k a : In (k, a) (flush_acts (i, e)) -> In k (st_del_keys S i).
Proof.
  destruct e as [[v d] del]. cbn [flush_acts]. destruct del.
  - unfold st_dels. rewrite in_map_iff. now intros (k' & [= <- _] & H).
  - destruct d; [apply (sl_writes_own S P LS)|].
    destruct (st_self_dirty S v); [apply (sl_writes_own S P LS)|intros []].
Qed.

Lemma flush_kv l : forall g i k, NoDup (map fst l) -> In k (st_del_keys S i) ->
  kv_apply (flat_map flush_acts l) g k =
  match lookup i l with Some e => kv_apply (flush_acts (i, e)) g k | None => g k end.
Proof.
  induction l as [|[j e] r IH]; intros g i k Hnd Hk; [reflexivity|].
  inversion Hnd as [|? ? Hj Hr]; subst. cbn [flat_map]. rewrite kv_apply_app, (IH _ i k Hr Hk).
  unfold Model_ItemCache.lookup. cbn [ic_lookup]. fold (lookup i r). destruct (id_dec i j) as [<-|Hne].
  - rewrite eqb_id_refl. now rewrite (proj2 (lookup_none i r) Hj).
  - rewrite eqb_id_neq by exact Hne.
    assert (Hout : kv_apply (flush_acts (j, e)) g k = g k).
    { apply kv_apply_frame. intros a Ha. apply Hne. symmetry.
      exact (sl_keys_disjoint S P LS j i k (flush_acts_own j e k a Ha) Hk). }
    destruct (lookup i r); [now apply kv_apply_local|exact Hout].
Qed.

Definition entry_settled (g : kv) (i : id) (e : entry S) : Prop :=
  match e with (v, d, del) => d = false /\ del = false /\ st_read S i g = Some (norm v) end.

Lemma written_ok g i v :
  st_read S i g = Some (norm v) -> (st_self_dirty S v = true -> sp_valid P i v g) ->
  entry_settled g i (v, false, false) /\ entry_ok g i (v, false, false).
Proof.
  intros R V. unfold entry_settled, entry_ok. csplit; auto. intros _ [H|H]; [discriminate|auto].
Qed.

(* one entry, seen through any bucket g1 that agrees on the keys of i *)
Lemma flush_entry_spec g g1 i e :
  entry_ok g i e -> (forall k, In k (st_del_keys S i) -> g1 k = kv_apply (flush_acts (i, e)) g k) ->
  st_read S i g1 = option_map norm (entry_abs e) /\
  forall e', flush_entry e = Some e' -> entry_settled g1 i e' /\ entry_ok g1 i e'.
Proof.
  destruct e as [[v d] del]. intros (H1 & H2 & H3) Hg.
  pose proof (sl_read_ext S P LS i g1 _ Hg) as R.
  assert (Hval : forall w, sp_valid P i w (kv_apply (flush_acts (i, (v, d, del))) g) -> sp_valid P i w g1).
  { intros w. apply (sl_valid_ext S P LS). intros k Hk. symmetry. now apply Hg. }
  cbn [flush_acts flush_entry entry_abs option_map] in *. destruct del.
  - split; [|discriminate]. rewrite R. apply (sl_read_deleted S P LS).
    destruct (sp_deletable P); [reflexivity|discriminate (H3 eq_refl)].
  - destruct d; [|destruct (st_self_dirty S v) eqn:Sd].
    + pose proof (H2 eq_refl (or_introl eq_refl)) as V. rewrite (sl_read_write S P LS i v g V) in R.
      split; [exact R|]. intros e' [= <-]. apply written_ok; [exact R|].
      intros _. now apply Hval, (sl_valid_written S P LS).
    + pose proof (sl_valid_clear S P LS i v g (H2 eq_refl (or_intror eq_refl))) as V.
      rewrite (sl_read_write S P LS i _ g V), (sl_norm_clear S P LS) in R.
      split; [exact R|]. intros e' [= <-]. apply written_ok; [now rewrite (sl_norm_clear S P LS)|].
      rewrite (sl_clear_clean S P LS). discriminate.
    + cbn [kv_apply] in R. rewrite (H1 eq_refl eq_refl eq_refl) in R.
      split; [exact R|]. intros e' [= <-]. apply written_ok; [exact R|congruence].
Qed.

Lemma settled_nabs c g i : settled c g -> nabs c g i = st_read S i g.
Proof.
  intros Hs. unfold Model_ItemCache.nabs. rewrite absmap_lookup.
  destruct (lookup i (c_items c)) as [[[v d] del]|] eqn:E.
  - destruct (Hs i v d del E) as (_ & -> & R). cbn. now rewrite R.
  - destruct (st_read S i g) as [w|] eqn:R; [|reflexivity]. cbn. now rewrite (sl_read_normal S P LS i g w R).
Qed.

Lemma inv_empty g : inv c_empty g.
Proof. apply inv_intro; [constructor|discriminate|discriminate]. Qed.
Lemma settled_empty g : settled c_empty g.
Proof. intros i v d del E. discriminate. Qed.

Lemma cold_nabs g i : nabs c_empty g i = st_read S i g.
Proof. apply settled_nabs, settled_empty. Qed.

Lemma flush_spec c b c' b' :
  let g := bk_get B b in let g' := bk_get B b' in
  inv c g -> c_flush S B c b = (c', b') ->
  (forall i, st_read S i g' = nabs c g i) /\ settled c' g' /\ inv c' g' /\
  (forall i, nabs c' g' i = nabs c g i) /\ c_all c' = c_all c.
Proof.
  intros g g' I. unfold c_flush. rewrite flush_items_eq. intros [= <- E]. unfold g'. rewrite <- E. clear g' E.
  pose proof (inv_nodup S P c g I) as Hnd. set (l := c_items c) in *.
  set (g' := bk_get B (bk_apply B (flat_map flush_acts l) b)).
  assert (K : forall i k, In k (st_del_keys S i) ->
            g' k = match lookup i l with Some e => kv_apply (flush_acts (i, e)) g k | None => g k end).
  { intros i k Hk. unfold g'. rewrite (bk_apply_get B LB). now apply flush_kv. }
  assert (Hent : forall i e, lookup i l = Some e ->
            st_read S i g' = option_map norm (entry_abs e) /\
            forall e', flush_entry e = Some e' -> entry_settled g' i e' /\ entry_ok g' i e').
  { intros i e E. apply (flush_entry_spec g g' i e (inv_entry_ok c g i e I E)).
    intros k Hk. now rewrite (K i k Hk), E. }
  assert (Hkept : forall i e', lookup i (keep flush_entry l) = Some e' -> entry_settled g' i e' /\ entry_ok g' i e').
  { intros i e' E'. apply lookup_in in E'. apply keep_in in E'; [|exact Hnd].
    destruct E' as (e & E & Hf). exact (proj2 (Hent i e E) e' Hf). }
  assert (Hpers : forall i, st_read S i g' = nabs c g i).
  { intros i. unfold Model_ItemCache.nabs. rewrite absmap_lookup. fold l.
    destruct (lookup i l) as [e|] eqn:E; [exact (proj1 (Hent i e E))|].
    rewrite (sl_read_ext S P LS i g' g) by (intros k Hk; now rewrite (K i k Hk), E).
    symmetry. apply cold_nabs. }
  assert (Hset : settled (mkCache (keep flush_entry l) (c_all c)) g').
  { intros i v' d' del' E'. exact (proj1 (Hkept i _ E')). }
  csplit; auto.
  - apply inv_intro; cbn [c_items c_all].
    + now apply keep_nodup.
    + intros i e' E'. exact (proj2 (Hkept i e' E')).
    + intros Ha k i Hk Hi Hl. pose proof (sl_idfk_own S P LS k i Hi) as Hown.
      rewrite (K i k Hown) in Hk. destruct (lookup i l) as [[[v d] del]|] eqn:E.
      * destruct del.
        -- apply Hk. unfold flush_acts, st_dels. apply kv_dels_in. now left.
        -- apply lookup_none in Hl. apply Hl, in_map_iff. eexists (i, _). split; [reflexivity|].
           apply keep_in; [exact Hnd|]. exists (v, d, false). split; [exact E|reflexivity].
      * exact (inv_all S P c g I Ha k i Hk Hi E).
  - intros i. rewrite (settled_nabs _ g' i Hset). apply Hpers.
Qed.

Lemma found_map m ids : map norm (found S m ids) = found S (fun i => option_map norm (m i)) ids.
Proof.
  unfold found. induction ids as [|i r IH]; [reflexivity|]. cbn [flat_map]. rewrite map_app, IH.
  now destruct (m i).
Qed.

Lemma norm_listing_fst l : map fst (norm_listing S P l) = map fst l.
Proof. unfold norm_listing. rewrite map_map. reflexivity. Qed.

Lemma listing_norm (m : amap S) l :
  is_listing S m l -> is_listing S (fun i => option_map norm (m i)) (norm_listing S P l).
Proof.
  intros [Hnd Hin]. split; [now rewrite norm_listing_fst|].
  intros i w. unfold norm_listing. rewrite in_map_iff. split.
  - intros ([j v] & [= <- <-] & Hv). apply Hin in Hv. cbn [fst snd]. now rewrite Hv.
  - destruct (m i) as [v|] eqn:E; [|discriminate]. intros [= <-]. exists (i, v). split; [reflexivity|now apply Hin].
Qed.

Lemma listing_ext m m' l : amap_eq m m' -> is_listing S m l -> is_listing S m' l.
Proof. intros H [H1 H2]. split; [exact H1|]. intros i w. now rewrite H2, H. Qed.

Lemma spec_step_ext o m m' : amap_eq m m' -> amap_eq (spec_step S P o m) (spec_step S P o m').
Proof.
  intros H i. destruct o; cbn [spec_step]; unfold amap_upd; auto.
  - now destruct (st_eqb S i0 i).
  - now destruct (st_eqb S i0 i).
  - rewrite (H i0). now destruct (st_eqb S i0 i).
Qed.

Lemma spec_run_ext ops : forall m m', amap_eq m m' -> amap_eq (spec_run S P ops m) (spec_run S P ops m').
Proof. induction ops as [|o r IH]; intros m m' H; cbn [spec_run]; [exact H|]. apply IH. now apply spec_step_ext. Qed.

Lemma obs_ok_ext m m' o x : amap_eq m m' -> obs_ok S P m o x -> obs_ok S P m' o x.
Proof.
  intros H. destruct o, x; cbn [obs_ok]; auto.
  - now rewrite H.
  - now rewrite (found_ext m m' ids H).
  - intros [H1 H2]. split; [exact H1|]. now apply (listing_ext m m').
  - intros (l & H1 & H2). exists l. split; [now apply (listing_ext m m')|exact H2].
Qed.

Lemma trace_ok_ext ops : forall m m' xs, amap_eq m m' -> trace_ok S P m ops xs -> trace_ok S P m' ops xs.
Proof.
  induction ops as [|o r IH]; intros m m' [|x xs] H; cbn [trace_ok]; auto.
  intros [H1 H2]. split; [now apply (obs_ok_ext m m')|]. apply (IH (spec_step S P o m) (spec_step S P o m')); [now apply spec_step_ext|exact H2].
Qed.

Lemma step_spec o c b c' b' x :
  let g := bk_get B b in let g' := bk_get B b' in
  inv c g -> wf_op S P c g o -> step S B o c b = (c', b', x) ->
  inv c' g' /\ obs_ok S P (nabs c g) o x /\ (forall i, nabs c' g' i = spec_step S P o (nabs c g) i) /\
  (read_only S o = true -> b' = b /\ (settled c g -> settled c' g')).
Proof.
  intros g g' I W. destruct o; cbn [step spec_step wf_op read_only obs_ok] in *.
  - destruct (c_get S B i c b) as [r c1] eqn:G. intros [= <- <- <-].
    destruct (get_spec c b i r c1 I G) as (-> & I1 & A1 & S1). csplit; auto. now apply nabs_absmap.
  - destruct (c_get_many S B ids c b) as [l c1] eqn:G. intros [= <- <- <-].
    destruct (get_many_spec ids c b l c1 I G) as (-> & I1 & A1 & S1). csplit; auto; [apply found_map|now apply nabs_absmap].
  - intros [= <- <- <-]. destruct (put_spec c g i v I W) as [I1 A1]. csplit; auto; try discriminate.
    intros j. unfold Model_ItemCache.nabs, amap_upd. rewrite A1. now destruct (st_eqb S i j).
  - intros [= <- <- <-]. destruct (delete_spec c b i I W) as [I1 A1]. csplit; auto; try discriminate.
    intros j. unfold Model_ItemCache.nabs, amap_upd. rewrite A1. now destruct (st_eqb S i j).
  - intros [= <- <- <-]. destruct W as [Wc Wv]. destruct (modify_spec c b i f I Wv) as [I1 A1]. fold g in A1.
    csplit; auto; try discriminate.
    intros j. unfold Model_ItemCache.nabs, amap_upd. rewrite A1. destruct (st_eqb S i j); [|reflexivity].
    destruct (absmap c g i) as [v|]; [|reflexivity]. cbn [option_map]. f_equal.
    apply Wc. symmetry. apply (sl_norm_idem S P LS).
  - destruct (c_foreach S B c b) as [[ok l] c1] eqn:G. intros [= <- <- <-].
    destruct (foreach_spec c b ok l c1 I G) as ((I1 & A1 & S1) & L1). destruct (L1 W) as [-> Ll].
    csplit; auto; [exact (listing_norm _ l Ll)|now apply nabs_absmap].
  - intros [= <- <- <-]. destruct W as [En Hu]. csplit; auto.
    destruct (count_spec c b I En Hu) as (l & Ll & ->). exists (norm_listing S P l).
    split; [exact (listing_norm _ l Ll)|]. unfold norm_listing. now rewrite map_length.
  - destruct (c_flush S B c b) as [c1 b1] eqn:G. intros [= <- <- <-].
    destruct (flush_spec c b c1 b1 I G) as (_ & _ & I1 & A1 & _). csplit; auto. discriminate.
Qed.

Lemma run_spec ops : forall c b c' b' xs,
  let g := bk_get B b in let g' := bk_get B b' in
  inv c g -> wf_run S B P ops c b -> run S B ops c b = (c', b', xs) ->
  inv c' g' /\ trace_ok S P (nabs c g) ops xs /\ (forall i, nabs c' g' i = spec_run S P ops (nabs c g) i) /\
  (forallb (read_only S) ops = true -> b' = b /\ (settled c g -> settled c' g')).
Proof.
  induction ops as [|o r IH]; intros c b c' b' xs g g' I W; cbn [run wf_run spec_run trace_ok forallb] in *.
  - intros H; inversion H; subst. subst g'. csplit; auto.
  - destruct W as [Wo Wr].
    destruct (step S B o c b) as [[c1 b1] x] eqn:St.
    destruct (run S B r c1 b1) as [[c2 b2] xs'] eqn:Rn. intros H; inversion H; subst.
    destruct (step_spec o c b c1 b1 x I Wo St) as (I1 & O1 & A1 & R1).
    destruct (IH c1 b1 c' b' xs' I1 Wr Rn) as (I2 & T2 & A2 & R2).
    csplit; auto.
    + apply (trace_ok_ext r (nabs c1 (bk_get B b1))); [exact A1|exact T2].
    + intros i. rewrite A2. apply spec_run_ext. exact A1.
    + intros Hro. apply andb_true_iff in Hro. destruct Hro as [Ho Hr].
      destruct (R1 Ho) as [-> S1]. destruct (R2 Hr) as [-> S2]. split; auto.
Qed.

Lemma listing_perm m (l l' : list (id * item)) : is_listing S m l -> is_listing S m l' -> perm_eq l l'.
Proof.
  intros [N1 M1] [N2 M2].
  assert (Hin : forall x, In x l <-> In x l') by (intros [i w]; now rewrite M1, M2).
  assert (D1 : NoDup l) by (now apply (NoDup_map_inv fst)).
  assert (D2 : NoDup l') by (now apply (NoDup_map_inv fst)).
  constructor; auto. apply Permutation_length. now apply NoDup_Permutation.
Qed.

Lemma obs_ok_det m o x y : obs_ok S P m o x -> obs_ok S P m o y -> obs_equiv P x y.
Proof.
  intros Hx Hy. destruct o, x; try contradiction; destruct y; try contradiction; cbn [obs_ok obs_equiv] in *;
    try congruence.
  - destruct Hx as [-> H1], Hy as [-> H2]. csplit; auto. now apply (listing_perm m).
  - destruct Hx as (l & L1 & ->), Hy as (l' & L2 & ->). now destruct (listing_perm m l l' L1 L2).
Qed.

Lemma trace_ok_det ops : forall m xs ys, trace_ok S P m ops xs -> trace_ok S P m ops ys -> Forall2 (obs_equiv P) xs ys.
Proof.
  induction ops as [|o r IH]; intros m [|x xs] [|y ys]; cbn [trace_ok]; try tauto; [constructor|].
  intros [H1 H2] [H3 H4]. constructor; [now apply (obs_ok_det m o)|now apply (IH (spec_step S P o m))].
Qed.

Definition spec_txn (t : txn S) (m : amap S) : amap S :=
  match t_kind t with TFail => m | _ => spec_run S P (t_ops t) m end.

Lemma run_txn_spec t c b c' b' xs :
  let g := bk_get B b in let g' := bk_get B b' in
  inv c g -> settled c g -> wf_txn S B P t c b -> run_txn S B t c b = (c', b', xs) ->
  inv c' g' /\ settled c' g' /\ trace_ok S P (nabs c g) (t_ops t) xs /\
  amap_eq (nabs c' g') (spec_txn t (nabs c g)).
Proof.
  intros g g' I Hs [W Wr]. unfold run_txn, spec_txn.
  set (c0 := if t_drop t then c_empty else c) in *.
  assert (I0 : inv c0 g) by (unfold c0; destruct (t_drop t); [apply inv_empty|exact I]).
  assert (S0 : settled c0 g) by (unfold c0; destruct (t_drop t); [apply settled_empty|exact Hs]).
  assert (A0 : amap_eq (nabs c0 g) (nabs c g)) by (intros i; now rewrite !settled_nabs).
  destruct (run S B (t_ops t) c0 b) as [[c1 b1] xs1] eqn:Rn.
  destruct (run_spec _ _ _ _ _ _ I0 W Rn) as (I1 & T1 & A1 & R1). fold g in T1, A1, R1.
  assert (T : trace_ok S P (nabs c g) (t_ops t) xs1) by (apply (trace_ok_ext _ (nabs c0 g)); auto).
  destruct (t_kind t) eqn:K.
  - intros H; inversion H; subst. destruct (R1 (Wr eq_refl)) as [-> S1]. subst g'.
    csplit; auto. intros i. rewrite A1. now apply spec_run_ext.
  - destruct (c_flush S B c1 b1) as [c2 b2] eqn:F. intros H; inversion H; subst.
    destruct (flush_spec c1 b1 c' b' I1 F) as (_ & S2 & I2 & A2 & _). fold g' in S2, I2, A2.
    csplit; auto. intros i. rewrite A2, A1. now apply spec_run_ext.
  - intros H; inversion H; subst. subst g'. csplit; auto.
    + apply inv_empty.
    + apply settled_empty.
    + intros i. fold g. now rewrite !settled_nabs by (auto using settled_empty).
Qed.

End Generic.

Section Sim.
Variable S : Storable.
Variable P : StorableSpec S.
Variables B1 B2 : BucketImpl.
Hypothesis L1 : BucketLaws B1.
Hypothesis L2 : BucketLaws B2.
Hypothesis LS : StorableLaws S P.

Lemma spec_txn_same t t' m : same_history S t t' -> spec_txn S P t m = spec_txn S P t' m.
Proof. intros [E1 E2]. unfold spec_txn. now rewrite E1, E2. Qed.

Lemma spec_txn_ext t m m' : amap_eq S m m' -> amap_eq S (spec_txn S P t m) (spec_txn S P t m').
Proof. intros H. unfold spec_txn. destruct (t_kind t); auto; now apply spec_run_ext. Qed.

Lemma sim_txs ts1 ts2 : Forall2 (same_history S) ts1 ts2 ->
  forall c1 b1 c2 b2 c1' b1' xs1 c2' b2' xs2,
  inv S P c1 (bk_get B1 b1) -> settled S P c1 (bk_get B1 b1) ->
  inv S P c2 (bk_get B2 b2) -> settled S P c2 (bk_get B2 b2) ->
  amap_eq S (nabs S P c1 (bk_get B1 b1)) (nabs S P c2 (bk_get B2 b2)) ->
  wf_txs S B1 P ts1 c1 b1 -> wf_txs S B2 P ts2 c2 b2 ->
  run_txs S B1 ts1 c1 b1 = (c1', b1', xs1) -> run_txs S B2 ts2 c2 b2 = (c2', b2', xs2) ->
  Forall2 (Forall2 (obs_equiv P)) xs1 xs2 /\
  amap_eq S (nabs S P c1' (bk_get B1 b1')) (nabs S P c2' (bk_get B2 b2')) /\
  settled S P c1' (bk_get B1 b1') /\ settled S P c2' (bk_get B2 b2').
Proof.
  induction 1 as [|t1 t2 r1 r2 Hh _ IH]; intros c1 b1 c2 b2 c1' b1' xs1 c2' b2' xs2 I1 S1 I2 S2 A;
    cbn [run_txs wf_txs].
  - intros _ _ [= <- <- <-] [= <- <- <-]. csplit; auto.
  - intros [Wt1 Wr1] [Wt2 Wr2].
    destruct (run_txn S B1 t1 c1 b1) as [[d1 e1] x1] eqn:R1.
    destruct (run_txn S B2 t2 c2 b2) as [[d2 e2] x2] eqn:R2.
    destruct (run_txs S B1 r1 d1 e1) as [[f1 g1] y1] eqn:Q1.
    destruct (run_txs S B2 r2 d2 e2) as [[f2 g2] y2] eqn:Q2.
    intros [= <- <- <-] [= <- <- <-].
    destruct (run_txn_spec S B1 P L1 LS t1 c1 b1 d1 e1 x1 I1 S1 Wt1 R1) as (J1 & T1 & O1 & M1).
    destruct (run_txn_spec S B2 P L2 LS t2 c2 b2 d2 e2 x2 I2 S2 Wt2 R2) as (J2 & T2 & O2 & M2).
    assert (A' : amap_eq S (nabs S P d1 (bk_get B1 e1)) (nabs S P d2 (bk_get B2 e2))).
    { intros i. rewrite M1, M2. rewrite (spec_txn_same t1 t2 _ Hh). now apply spec_txn_ext. }
    destruct (IH d1 e1 d2 e2 f1 g1 y1 f2 g2 y2 J1 T1 J2 T2 A' Wr1 Wr2 Q1 Q2) as (F & Af & K1 & K2).
    csplit; auto. constructor; [|exact F].
    destruct Hh as [Eo _]. rewrite <- Eo in O2.
    apply (trace_ok_det S P (t_ops t1) (nabs S P c1 (bk_get B1 b1))); [exact O1|].
    apply (trace_ok_ext S P (t_ops t1) (nabs S P c2 (bk_get B2 b2))); [|exact O2].
    intros i. symmetry. apply A.
Qed.

Lemma sim_cold ts1 ts2 b01 b02 c1 b1 xs1 c2 b2 xs2 :
  (forall i, st_read S i (bk_get B1 b01) = st_read S i (bk_get B2 b02)) ->
  Forall2 (same_history S) ts1 ts2 ->
  wf_txs S B1 P ts1 c_empty b01 -> wf_txs S B2 P ts2 c_empty b02 ->
  run_txs S B1 ts1 c_empty b01 = (c1, b1, xs1) -> run_txs S B2 ts2 c_empty b02 = (c2, b2, xs2) ->
  Forall2 (Forall2 (obs_equiv P)) xs1 xs2 /\
  amap_eq S (nabs S P c1 (bk_get B1 b1)) (nabs S P c2 (bk_get B2 b2)) /\
  (forall i, st_read S i (bk_get B1 b1) = st_read S i (bk_get B2 b2)) /\
  amap_eq S (nabs S P c1 (bk_get B1 b1)) (nabs S P c_empty (bk_get B1 b1)).
Proof.
  intros H0 HF W1 W2 R1 R2.
  assert (A0 : amap_eq S (nabs S P c_empty (bk_get B1 b01)) (nabs S P c_empty (bk_get B2 b02))).
  { intros i. rewrite !(cold_nabs S P LS). apply H0. }
  destruct (sim_txs ts1 ts2 HF c_empty b01 c_empty b02 c1 b1 xs1 c2 b2 xs2
              (inv_empty S P _) (settled_empty S P _) (inv_empty S P _) (settled_empty S P _)
              A0 W1 W2 R1 R2) as (F & A & S1 & S2).
  csplit; auto.
  - intros i. rewrite <- (settled_nabs S P LS c1 _ i S1), <- (settled_nabs S P LS c2 _ i S2). apply A.
  - intros i. now rewrite (settled_nabs S P LS c1 _ i S1), (cold_nabs S P LS).
Qed.
End Sim.

Lemma suffixes_ok : suffixes_ok_b = true.
Proof. reflexivity. Qed.

Lemma pos_size_nat_lt p : forall k, (Pos.size_nat p <= k)%nat <-> Npos p < 2 ^ N.of_nat k.
Proof.
  induction p as [p IH|p IH|]; intros k; cbn [Pos.size_nat].
  1, 2: destruct k as [|k]; [split; [lia|]; cbn; lia|];
    rewrite Nat2N.inj_succ, N.pow_succ_r', <- Nat.succ_le_mono, IH; lia.
  - destruct k as [|k]; [split; [lia|]; cbn; lia|].
    rewrite Nat2N.inj_succ, N.pow_succ_r'.
    assert (0 < 2 ^ N.of_nat k) by (apply N.neq_0_lt_0; apply N.pow_nonzero; lia). lia.
Qed.

Lemma fits64_lt n : fits64 n = true <-> n < two64.
Proof.
  unfold fits64. rewrite Nat.leb_le. destruct n as [|p]; cbn [N.size_nat].
  - split; [intros _; reflexivity|lia].
  - rewrite pos_size_nat_lt. reflexivity.
Qed.

Lemma u64_val_lt i : u64_val i < two64.
Proof. destruct i as [n H]. cbn. now apply fits64_lt. Qed.

Lemma u64_ext i j : u64_val i = u64_val j -> i = j.
Proof.
  destruct i as [n Hn], j as [m Hm]. cbn. intros ->. f_equal.
  apply (UIP_dec bool_dec).
Qed.

Lemma u64_eqb_spec i j : u64_eqb i j = true <-> i = j.
Proof.
  unfold u64_eqb. rewrite N.eqb_eq. split; [apply u64_ext|now intros ->].
Qed.

Lemma mk_u64_val n i : mk_u64 n = Some i -> u64_val i = n.
Proof. unfold mk_u64. destruct (bool_dec (fits64 n) true); intros H; inversion H. reflexivity. Qed.

Lemma mk_u64_of i : mk_u64 (u64_val i) = Some i.
Proof.
  unfold mk_u64. destruct (bool_dec (fits64 (u64_val i)) true) as [H|H].
  - apply (f_equal Some). now apply u64_ext.
  - exfalso. apply H. apply fits64_lt. apply u64_val_lt.
Qed.

Lemma is_bytes_all k : is_bytes k = true <-> all_bytes k.
Proof.
  unfold is_bytes, all_bytes. rewrite forallb_forall, Forall_forall.
  split; intros H x Hx; specialize (H x Hx); [now apply N.ltb_lt|now apply N.ltb_lt].
Qed.

Lemma nkey_inj i s j s' : nkey i s = nkey j s' -> i = j /\ s = s'.
Proof.
  unfold nkey. intros E. apply node_key_inj in E; try apply u64_val_lt.
  destruct E as [E1 E2]. split; [now apply u64_ext|exact E2].
Qed.

Lemma nkey_bytes i s : s < 256 -> is_bytes (nkey i s) = true.
Proof.
  intros Hs. apply is_bytes_all. unfold nkey, node_key, all_bytes. constructor; [reflexivity|].
  apply Forall_app. split; [apply le_all_bytes|]. constructor; [exact Hs|constructor].
Qed.

Lemma node_id_from_key_inv k s n :
  is_bytes k = true -> node_id_from_key k s = Some n -> k = node_key n s.
Proof.
  intros Hb. unfold node_id_from_key.
  destruct node_layout_ok as (-> & -> & -> & -> & ->).
  destruct (Nat.eqb (length k) 10) eqn:El; cbn [negb]; [|discriminate].
  apply Nat.eqb_eq in El.
  do 11 (destruct k as [|? k]; try discriminate El). clear El.
  cbn [nth]. destruct (n0 =? node_prefix) eqn:E0; cbn [negb]; [|discriminate].
  destruct (n9 =? s) eqn:E9; cbn [negb]; [|discriminate].
  apply N.eqb_eq in E0, E9. subst n0 n9. cbn [length Nat.sub skipn firstn].
  set (m := [n1; n2; n3; n4; n5; n6; n7; n8]). intros H. assert (n = unle m) as -> by congruence. clear H.
  apply is_bytes_all, Forall_inv_tail, (Forall_app _ m [s]) in Hb.
  unfold node_key. change u64_width with (length m). now rewrite (le_unle m (proj1 Hb)).
Qed.

Lemma node_idfk_go_inv sfx : forall k i, is_bytes k = true -> node_idfk_go sfx k = Some i ->
  exists s, In s sfx /\ k = nkey i s.
Proof.
  induction sfx as [|s r IH]; intros k i Hb; cbn [node_idfk_go]; [discriminate|].
  destruct (node_id_from_key k s) as [n|] eqn:E.
  - intros Hm. apply mk_u64_val in Hm. subst n.
    rewrite (node_id_from_key_inv k s _ Hb E). exists s. split; [now left|reflexivity].
  - intros H. destruct (IH k i Hb H) as (s' & Hs' & ->). exists s'. split; [now right|reflexivity].
Qed.

Lemma node_idfk_inv sfx k i : node_idfk sfx k = Some i -> exists s, In s sfx /\ k = nkey i s.
Proof.
  unfold node_idfk. destruct (is_bytes k) eqn:Hb; [|discriminate]. now apply node_idfk_go_inv.
Qed.

Lemma node_idfk_go_key sfx : forall i s, In s sfx -> node_idfk_go sfx (nkey i s) = Some i.
Proof.
  induction sfx as [|s0 r IH]; intros i s Hin; [destruct Hin|]. cbn [node_idfk_go].
  destruct (N.eq_dec s0 s) as [->|Hne].
  - unfold nkey. rewrite node_key_roundtrip by apply u64_val_lt. apply mk_u64_of.
  - unfold nkey at 1. rewrite node_key_other_suffix by congruence.
    apply IH. destruct Hin as [H|H]; [congruence|exact H].
Qed.

Lemma node_idfk_key sfx i s : s < 256 -> In s sfx -> node_idfk sfx (nkey i s) = Some i.
Proof. intros Hs Hin. unfold node_idfk. rewrite nkey_bytes by exact Hs. now apply node_idfk_go_key. Qed.

Lemma doc_id_from_key_inv k n :
  is_bytes k = true -> doc_id_from_key k = Some n -> k = doc_key n.
Proof.
  intros Hb. unfold doc_id_from_key.
  destruct doc_layout_ok as (-> & -> & ->).
  destruct (Nat.eqb (length k) 9) eqn:El; cbn [negb]; [|discriminate].
  apply Nat.eqb_eq in El.
  do 10 (destruct k as [|? k]; try discriminate El). clear El.
  cbn [nth]. destruct (n0 =? doc_prefix) eqn:E0; cbn [negb]; [|discriminate].
  apply N.eqb_eq in E0. subst n0. cbn [skipn].
  set (m := [n1; n2; n3; n4; n5; n6; n7; n8]). intros H. assert (n = unle m) as -> by congruence. clear H.
  apply is_bytes_all, Forall_inv_tail in Hb.
  unfold doc_key. change u64_width with (length m). now rewrite (le_unle m Hb).
Qed.

Lemma doc_idfk_inv k i : doc_idfk k = Some i -> k = doc_key (u64_val i).
Proof.
  unfold doc_idfk. destruct (is_bytes k) eqn:Hb; [|discriminate].
  destruct (doc_id_from_key k) as [n|] eqn:E; [|discriminate].
  intros Hm. apply mk_u64_val in Hm. subst n. exact (doc_id_from_key_inv k _ Hb E).
Qed.

Lemma doc_idfk_key i : doc_idfk (doc_key (u64_val i)) = Some i.
Proof.
  unfold doc_idfk.
  assert (Hb : is_bytes (doc_key (u64_val i)) = true).
  { apply is_bytes_all. unfold doc_key, all_bytes. constructor; [reflexivity|apply le_all_bytes]. }
  rewrite Hb, doc_key_roundtrip by apply u64_val_lt. apply mk_u64_of.
Qed.

Lemma doc_key_u64_inj i j : doc_key (u64_val i) = doc_key (u64_val j) -> i = j.
Proof. intros E. apply u64_ext. apply doc_key_inj in E; auto using u64_val_lt. Qed.

Lemma term_from_key_inv k t : term_from_key k = Some t -> k = term_key t.
Proof.
  unfold term_from_key. destruct term_layout_ok as (-> & -> & ->).
  destruct (Nat.ltb (length k) 2) eqn:El; [discriminate|]. apply Nat.ltb_ge in El.
  destruct k as [|a k]; [cbn in El; lia|]. cbn [nth].
  destruct (a =? term_prefix) eqn:Ea; cbn [negb]; [|discriminate]. apply N.eqb_eq in Ea. subst a.
  destruct (last (term_prefix :: k) 256 =? term_suffix) eqn:Es; cbn [negb]; [|discriminate].
  apply N.eqb_eq in Es. intros H; inversion H; subst t. clear H. cbn [tl].
  assert (Hk : k <> []) by (destruct k; [cbn in El; lia|discriminate]).
  unfold term_key. f_equal.
  rewrite (app_removelast_last 256 Hk) at 1. f_equal. f_equal.
  rewrite <- Es. destruct k; [contradiction|reflexivity].
Qed.

Lemma sfx_vq : sfx_v <> sfx_q. Proof. discriminate. Qed.
Lemma nkey_neq i j s s' : s <> s' -> nkey i s <> nkey j s'.
Proof. intros H E. now apply H, (nkey_inj _ _ _ _ E). Qed.

Lemma two_keys_disjoint i j k :
  In k [nkey i sfx_v; nkey i sfx_q] -> In k [nkey j sfx_v; nkey j sfx_q] -> i = j.
Proof.
  intros [<-|[<-|[]]] [E|[E|[]]]; now destruct (nkey_inj _ _ _ _ E).
Qed.

Lemma bq_sfx s : In s bq_idfromkey_suffixes <-> s = sfx_q \/ s = sfx_v.
Proof. split; [intros [<-|[<-|[]]]; auto|intros [->| ->]; [now left|right; now left]]. Qed.

(* looking up the keys of one node id after the writes of that id *)
Ltac kvs :=
  cbn [kv_apply app map]; unfold kv_upd;
  repeat (rewrite ?bytes_eqb_refl, ?(bytes_eqb_neq _ _ (nkey_neq _ _ _ _ sfx_vq)),
          ?(bytes_eqb_neq _ _ (nkey_neq _ _ _ _ (not_eq_sym sfx_vq)))).

(* the laws of instance S with specification P, the fields in place of the projections;
   those that hold by computation are closed *)
Ltac storable_laws S P :=
  constructor; unfold st_dels;
  cbn [S P st_id st_item st_eqb st_writes st_del_keys st_read st_id_from_key st_self_dirty st_clear_dirty
       sp_norm sp_valid sp_deletable];
  try (intros; first [reflexivity|assumption]).

Lemma one_key_enumerable (S : Storable) (key : st_id S -> bytes) :
  (forall i g, st_read S i g <> None <-> g (key i) <> None) ->
  (forall i, st_id_from_key S (key i) = Some i) ->
  (forall k i, st_id_from_key S k = Some i -> k = key i) ->
  Enumerable S /\ forall g, enum_unique S g.
Proof.
  intros Hr Hk Hi. split; [constructor|].
  - intros i g w R. exists (key i). split; [apply Hr; congruence|apply Hk].
  - intros i g k Hg Hik. apply Hr. now rewrite <- (Hi k i Hik).
  - intros g k k' i _ _ H H'. now rewrite (Hi k i H), (Hi k' i H').
Qed.

Lemma plain_laws : StorableLaws plain_inst plain_spec.
Proof.
  storable_laws plain_inst plain_spec.
  - exact u64_eqb_spec.
  - intros i g g' H. now rewrite (H _ (or_introl eq_refl)).
  - intros i j k [<-|[]] [E|[]]. now destruct (nkey_inj _ _ _ _ E).
  - intros i v k a [[= <- _]|[]]. now left.
  - intros k i H. destruct (node_idfk_inv _ _ _ H) as (s & [<-|[]] & ->). now left.
  - intros i v g Hv. kvs. cbn [option_map]. now rewrite (f32s_roundtrip v Hv).
  - intros i g _. kvs. reflexivity.
Qed.

Lemma plain_enum : Enumerable plain_inst /\ forall g, enum_unique plain_inst g.
Proof.
  apply (one_key_enumerable plain_inst (fun i => nkey i sfx_v)); cbn [plain_inst st_read st_id_from_key].
  - intros i g. now destruct (g (nkey i sfx_v)).
  - intros i. apply node_idfk_key; [reflexivity|now left].
  - intros k i H. now destruct (node_idfk_inv _ _ _ H) as (s & [<-|[]] & ->).
Qed.

(* for the plain instance legality does not depend on the state *)
Definition plain_op_ok (o : op plain_inst) : Prop :=
  match o with OPut _ v => f32_words v | OModify _ _ => False | _ => True end.
Definition plain_txn_ok (t : txn plain_inst) : Prop :=
  Forall plain_op_ok (t_ops t) /\ (t_kind t = TRead -> forallb (read_only plain_inst) (t_ops t) = true).

Lemma plain_wf_op c g o : plain_op_ok o -> wf_op plain_inst plain_spec c g o.
Proof.
  destruct o; cbn [plain_op_ok wf_op]; auto.
  - intros [].
  - intros _. exact (proj1 plain_enum).
  - intros _. exact (conj (proj1 plain_enum) (proj2 plain_enum g)).
Qed.

Lemma plain_wf_run B ops : forall c b, Forall plain_op_ok ops -> wf_run plain_inst B plain_spec ops c b.
Proof.
  induction ops as [|o r IH]; intros c b H; cbn [wf_run]; [exact I|].
  inversion H; subst. split; [now apply plain_wf_op|].
  destruct (step plain_inst B o c b) as [[c1 b1] x]. now apply IH.
Qed.

Lemma plain_wf_txs B ts : forall c b, Forall plain_txn_ok ts -> wf_txs plain_inst B plain_spec ts c b.
Proof.
  induction ts as [|t r IH]; intros c b H; cbn [wf_txs]; [exact I|].
  inversion H as [|? ? [H1 H2] Hr]; subst. split.
  - split; [now apply plain_wf_run|exact H2].
  - destruct (run_txn plain_inst B t c b) as [[c1 b1] x]. now apply IH.
Qed.

Lemma bq_norm_idem v : bq_norm (bq_norm v) = bq_norm v.
Proof. destruct v as [vec [|c code] d]; reflexivity. Qed.

Lemma binary_laws a : (forall s, In s a -> s = sfx_v \/ s = sfx_q) ->
  StorableLaws (binary_inst_with a) (binary_spec_with a).
Proof.
  intros Ha. storable_laws binary_inst_with binary_spec_with.
  - exact u64_eqb_spec.
  - intros i g g' H. unfold bq_read.
    rewrite (H (nkey i sfx_q)) by (right; now left). rewrite (H (nkey i sfx_v)) by now left. reflexivity.
  - exact two_keys_disjoint.
  - intros i [vec code d] k x. unfold bq_writes. cbn [bq_vec bq_code].
    destruct code; cbn [is_nil negb].
    + destruct vec; cbn [is_nil negb]; [intros []|]. intros [[= <- _]|[]]. now left.
    + intros [[= <- _]|[]]. right. now left.
  - intros k i H. destruct (node_idfk_inv _ _ _ H) as (s & Hs & ->).
    destruct (Ha s Hs) as [->| ->]; [now left|right; now left].
  - intros i [vec code d] g (Hv & Hc & Hne). cbn [bq_vec bq_code] in *. unfold bq_writes, bq_read, bq_norm.
    cbn [bq_vec bq_code]. destruct code as [|c code]; cbn [is_nil negb].
    + destruct Hne as [Hne|[Hne Hq]]; [congruence|]. destruct vec as [|x vec]; [congruence|]. cbn [is_nil negb].
      kvs. rewrite Hq. now rewrite (f32s_roundtrip _ Hv).
    + kvs. now rewrite (edges_roundtrip _ Hc).
  - intros i g _. unfold bq_read. kvs. reflexivity.
  - intros i g w. unfold bq_read.
    destruct (g (nkey i sfx_q)) as [b|]; [intros [= <-]; unfold bq_norm; cbn [bq_code]; now destruct (edges_of_le b)|].
    destruct (g (nkey i sfx_v)) as [b|]; [intros [= <-]; reflexivity|discriminate].
  - exact bq_norm_idem.
  - intros [vec [|c code] d]; reflexivity.
  - intros i v g g' H (Hv & Hc & Hne). unfold bq_valid. csplit; auto.
    destruct Hne as [Hne|[Hne Hq]]; [now left|right]. split; [exact Hne|].
    rewrite <- Hq. symmetry. apply H. right. now left.
  - intros i [vec code d] g (Hv & Hc & Hne). unfold bq_valid in *. cbn [bq_vec bq_code] in *.
    csplit; auto. destruct code as [|c code]; [|left; discriminate].
    destruct Hne as [Hne|[Hne Hq]]; [congruence|]. right. split; [exact Hne|].
    unfold bq_writes. cbn [bq_vec bq_code is_nil negb].
    destruct vec; cbn [is_nil negb]; kvs; exact Hq.
Qed.

Lemma binary_inst_laws : StorableLaws binary_inst binary_spec.
Proof. apply binary_laws. intros s Hs. apply bq_sfx in Hs. tauto. Qed.

Lemma binary_v0_laws : StorableLaws binary_inst_v0 (binary_spec_with [sfx_v]).
Proof. apply binary_laws. intros s [<-|[]]. now left. Qed.

(* holds only because 'q' is among the accepted suffixes *)
Lemma binary_enumerable : Enumerable binary_inst.
Proof.
  constructor; cbn [binary_inst binary_inst_with st_read st_id_from_key]; unfold bq_read.
  - intros i g w H. destruct (g (nkey i sfx_q)) eqn:Eq.
    + exists (nkey i sfx_q). split; [congruence|]. apply node_idfk_key; [reflexivity|apply bq_sfx; now left].
    + destruct (g (nkey i sfx_v)) eqn:Ev; [|discriminate].
      exists (nkey i sfx_v). split; [congruence|]. apply node_idfk_key; [reflexivity|apply bq_sfx; now right].
  - intros i g k Hk Hi. destruct (node_idfk_inv _ _ _ Hi) as (s & Hs & ->).
    destruct (g (nkey i sfx_q)) eqn:Eq; [discriminate|].
    apply bq_sfx in Hs. destruct Hs as [->| ->]; [congruence|].
    destruct (g (nkey i sfx_v)); [discriminate|contradiction].
Qed.

Lemma product_laws : StorableLaws product_inst product_spec.
Proof.
  storable_laws product_inst product_spec.
  - exact u64_eqb_spec.
  - intros i g g' H. unfold pq_read.
    rewrite (H (nkey i sfx_q)) by (right; now left). rewrite (H (nkey i sfx_v)) by now left. reflexivity.
  - exact two_keys_disjoint.
  - intros i [vec code d] k x Hin. unfold pq_writes in Hin. cbn [bq_vec bq_code] in Hin.
    apply in_app_or in Hin. destruct Hin as [H|H].
    + destruct vec; cbn [is_nil negb] in H; [destruct H|]. destruct H as [[= <- _]|[]]. now left.
    + destruct code; cbn [is_nil negb] in H; [destruct H|]. destruct H as [[= <- _]|[]]. right. now left.
  - intros k i H. destruct (node_idfk_inv _ _ _ H) as (s & [<-|[]] & ->). now left.
  - intros i [vec code d] g (Hv & Hne). cbn [bq_vec bq_code] in *. unfold pq_writes, pq_read, bq_norm.
    cbn [bq_vec bq_code]. destruct code as [|c code]; cbn [is_nil negb].
    + destruct Hne as [Hne|[Hne Hq]]; [congruence|]. destruct vec as [|x vec]; [congruence|]. cbn [is_nil negb].
      kvs. rewrite Hq. now rewrite (f32s_roundtrip _ Hv).
    + destruct vec as [|x vec]; cbn [is_nil negb]; kvs; reflexivity.
  - intros i g _. unfold pq_read. kvs. reflexivity.
  - intros i g w. unfold pq_read.
    destruct (g (nkey i sfx_q)) as [b|]; [intros [= <-]; unfold bq_norm; cbn [bq_code]; now destruct b|].
    destruct (g (nkey i sfx_v)) as [b|]; [intros [= <-]; reflexivity|discriminate].
  - exact bq_norm_idem.
  - intros [vec [|c code] d]; reflexivity.
  - intros i v g g' H (Hv & Hne). unfold pq_valid. csplit; auto.
    destruct Hne as [Hne|[Hne Hq]]; [now left|right]. split; [exact Hne|].
    rewrite <- Hq. symmetry. apply H. right. now left.
  - intros i [vec code d] g (Hv & Hne). unfold pq_valid in *. cbn [bq_vec bq_code] in *.
    csplit; auto. destruct code as [|c code]; [|left; discriminate].
    destruct Hne as [Hne|[Hne Hq]]; [congruence|]. right. split; [exact Hne|].
    unfold pq_writes. cbn [bq_vec bq_code is_nil negb].
    destruct vec; cbn [is_nil negb]; kvs; exact Hq.
Qed.

Lemma node_laws : StorableLaws node_inst node_spec.
Proof.
  storable_laws node_inst node_spec.
  - exact u64_eqb_spec.
  - intros i g g' H. now rewrite (H _ (or_introl eq_refl)).
  - intros i j k [<-|[]] [E|[]]. now destruct (nkey_inj _ _ _ _ E).
  - intros i v k a [[= <- _]|[]]. now left.
  - intros k i H. destruct (node_idfk_inv _ _ _ H) as (s & [<-|[]] & ->). now left.
  - intros i v g Hv. kvs. cbn [option_map]. now rewrite (edges_roundtrip _ Hv).
  - intros i g _. kvs. reflexivity.
  - intros i g w. destruct (g (nkey i sfx_e)); [intros [= <-]; reflexivity|discriminate].
Qed.

Lemma node_enum : Enumerable node_inst /\ forall g, enum_unique node_inst g.
Proof.
  apply (one_key_enumerable node_inst (fun i => nkey i sfx_e)); cbn [node_inst st_read st_id_from_key].
  - intros i g. now destruct (g (nkey i sfx_e)).
  - intros i. apply node_idfk_key; [reflexivity|now left].
  - intros k i H. now destruct (node_idfk_inv _ _ _ H) as (s & [<-|[]] & ->).
Qed.

Lemma textset_laws enc dec : (forall s, dec (enc s) = s) ->
  StorableLaws (textset_inst enc dec) (textset_spec enc dec).
Proof.
  intros dec_enc. storable_laws textset_inst textset_spec.
  - exact bytes_eqb_eq.
  - intros t g g' H. now rewrite (H _ (or_introl eq_refl)).
  - intros t u k [<-|[]] [E|[]]. symmetry. now apply term_key_inj.
  - intros t v k a. destruct (is_nil (fst v)); intros [[= <- _]|[]]; now left.
  - intros k t H. left. symmetry. now apply term_from_key_inv.
  - intros t [s d] g _. cbn [fst]. destruct s as [|x s]; cbn [is_nil]; kvs; [reflexivity|]. now rewrite dec_enc.
  - discriminate.
  - intros t g w [= <-]. now destruct (g (term_key t)).
Qed.

Section TextDoc.
Variable T : Type.
Variable enc : T * N -> bytes.
Variable dec : bytes -> T * N.

Lemma textdoc_laws : (forall v, dec (enc v) = v) -> StorableLaws (textdoc_inst T enc dec) (textdoc_spec T enc dec).
Proof.
  intros dec_enc. storable_laws textdoc_inst textdoc_spec.
  - exact u64_eqb_spec.
  - intros i g g' H. now rewrite (H _ (or_introl eq_refl)).
  - intros i j k [<-|[]] [E|[]]. symmetry. now apply doc_key_u64_inj.
  - intros i v k a. destruct (snd v =? 0); intros [[= <- _]|[]]; now left.
  - intros k i H. left. symmetry. now apply doc_idfk_inv.
  - intros i v g Hv. apply N.eqb_neq in Hv. rewrite Hv. kvs. cbn [option_map]. now rewrite dec_enc.
  - intros i g _. kvs. reflexivity.
Qed.

Lemma textdoc_enum : Enumerable (textdoc_inst T enc dec) /\ forall g, enum_unique (textdoc_inst T enc dec) g.
Proof.
  apply (one_key_enumerable (textdoc_inst T enc dec) (fun i => doc_key (u64_val i))); cbn [textdoc_inst st_read st_id_from_key].
  - intros i g. now destruct (g (doc_key (u64_val i))).
  - exact doc_idfk_key.
  - exact doc_idfk_inv.
Qed.
End TextDoc.

(* What fails without the hypotheses: concrete witnesses.  The result of each
   concrete run is stated once, as an equation closed by [reflexivity]: the
   kernel then evaluates the run and nothing else.  ([vm_compute] on such a goal
   also normalises the instance record that stands in the type of a cache, and
   the codecs in it are large under binders.) *)

Definition id1 : u64id := exist _ 1 eq_refl.
Definition id2 : u64id := exist _ 2 eq_refl.

(* F3: unless 'q' is accepted a quantised point has no enumerating key *)
Definition bq_cold_bucket : alist := [(nkey id1 sfx_q, edges_le [5])].
Definition bq_cold_item : bq_item := mkBq [] [5] false.

Lemma binary_needs_q a : ~ In sfx_q a -> ~ Enumerable (binary_inst_with a).
Proof.
  intros Ha En.
  destruct (en_complete _ En id1 (al_get bq_cold_bucket) bq_cold_item eq_refl) as (k & Hk & Hi).
  destruct (node_idfk_inv _ _ _ Hi) as (s & Hs & ->).
  apply Hk. unfold bq_cold_bucket. cbn [al_get]. rewrite bytes_eqb_neq; [reflexivity|].
  apply nkey_neq. now intros <-.
Qed.

(* Count counts keys: a point fitted after it was stored has both keys *)
Definition bq_unfitted : bq_item := mkBq [1065353216] [] false.
Definition bq_fit (v : bq_item) : bq_item := mkBq (bq_vec v) [1] true.
Definition bq_fit_history : list (txn binary_inst) :=
  [ @mkTxn binary_inst false [@OPut binary_inst id1 bq_unfitted] TWrite;                (* stored before the quantiser is fitted: 'v' *)
    @mkTxn binary_inst false [@OModify binary_inst id1 bq_fit] TWrite ].                 (* Fit re-encodes in place: 'q' written, 'v' stays *)

Lemma bq_unfitted_valid i g : g (nkey i sfx_q) = None -> bq_valid i bq_unfitted g.
Proof. intros Hq. split; [repeat constructor|]. split; [constructor|]. right. split; [discriminate|exact Hq]. Qed.

Lemma bq_fit_wf c g i :
  (forall v, absmap binary_inst c g i = Some v -> f32_words (bq_vec v)) ->
  wf_op binary_inst binary_spec c g (@OModify binary_inst i bq_fit).
Proof.
  intros Hc. split; [reflexivity|]. intros v Hv. right. split; [reflexivity|].
  split; [exact (Hc v Hv)|]. split; [repeat constructor|]. left. discriminate.
Qed.

Lemma bq_fit_stored :
  run_txn binary_inst AL (@mkTxn binary_inst false [@OPut binary_inst id1 bq_unfitted] TWrite) c_empty [] =
  (@mkCache binary_inst [(id1, (bq_unfitted, false, false))] false,
   [(nkey id1 sfx_v, f32s_le [1065353216])], [@ObsUnit binary_inst]).
Proof. reflexivity. Qed.

Lemma bq_fit_history_wf : wf_txs binary_inst AL binary_spec bq_fit_history c_empty [].
Proof.
  unfold bq_fit_history. cbn [wf_txs]. rewrite bq_fit_stored.
  unfold wf_txn. cbn [wf_run step t_ops t_drop t_kind]. csplit; try exact I; try discriminate.
  - apply bq_unfitted_valid. reflexivity.
  - apply bq_fit_wf. intros v [= <-]. repeat constructor.
Qed.

Lemma bq_fit_history_run :
  run_txs binary_inst AL bq_fit_history c_empty [] =
  (@mkCache binary_inst [(id1, (mkBq [1065353216] [1] false, false, false))] false,
   [(nkey id1 sfx_q, edges_le [1]); (nkey id1 sfx_v, f32s_le [1065353216])],
   [[@ObsUnit binary_inst]; [@ObsUnit binary_inst]]).
Proof. reflexivity. Qed.

Lemma binary_two_keys_not_unique g i :
  g (nkey i sfx_q) <> None -> g (nkey i sfx_v) <> None -> ~ enum_unique binary_inst g.
Proof.
  intros Hq Hv Hu. apply (nkey_neq i i _ _ (not_eq_sym sfx_vq)).
  apply (Hu _ _ i Hq Hv); apply node_idfk_key; try reflexivity; apply bq_sfx; auto.
Qed.

(* an absent term reads as the empty set *)
Lemma textset_not_enumerable enc dec : ~ Enumerable (textset_inst enc dec).
Proof.
  intros En. destruct (en_complete _ En [] kv_empty ([], false) eq_refl) as (k & Hk & _).
  now apply Hk.
Qed.

(* IsDirty short-circuits CheckAndClearDirty: a point that was Put and then
   re-encoded in the same transaction keeps its own flag after Flush *)
Definition bq_refit : cache binary_inst :=
  c_modify binary_inst AL id1 bq_fit (c_put binary_inst id1 bq_unfitted c_empty) [].

Lemma bq_refit_inv : inv binary_inst binary_spec bq_refit (al_get []).
Proof.
  apply (modify_spec binary_inst AL binary_spec binary_inst_laws).
  - apply (put_spec binary_inst binary_spec binary_inst_laws); [apply inv_empty|].
    apply bq_unfitted_valid. reflexivity.
  - apply bq_fit_wf. intros v [= <-]. repeat constructor.
Qed.

Lemma bq_refit_flush :
  c_flush binary_inst AL bq_refit [] =
  (@mkCache binary_inst [(id1, (bq_fit bq_unfitted, false, false))] false, [(nkey id1 sfx_q, edges_le [1])]).
Proof. reflexivity. Qed.

(* F6: a cache registered from a snapshot that predates a commit *)
Definition vecA : list N := [1065353216].      (* 1.0 *)
Definition vecB : list N := [1073741824].      (* 2.0 *)
Definition stale_b0 : alist := [(nkey id1 sfx_v, f32s_le vecA)].
Definition stale_reader : list (op plain_inst) := [@OGet plain_inst id1].
Definition stale_writer : list (op plain_inst) := [@OPut plain_inst id1 vecB].
Definition stale_cache : cache plain_inst := @mkCache plain_inst [(id1, (vecA, false, false))] false.
Definition stale_b1 : alist := [(nkey id1 sfx_v, f32s_le vecB)].

Lemma stale_state_eq : stale_state plain_inst AL stale_reader stale_writer stale_b0 = (stale_cache, stale_b1).
Proof. reflexivity. Qed.

Lemma stale_witness :
  inv plain_inst plain_spec stale_cache (al_get stale_b0) /\
  settled plain_inst plain_spec stale_cache (al_get stale_b0) /\
  fst (c_get plain_inst AL id1 stale_cache stale_b1) = Some vecA /\
  fst (c_get plain_inst AL id1 c_empty stale_b1) = Some vecB /\
  ~ inv plain_inst plain_spec stale_cache (al_get stale_b1).
Proof.
  destruct (get_spec plain_inst AL plain_spec plain_laws c_empty stale_b0 id1 (Some vecA) stale_cache
              (inv_empty _ _ _) eq_refl) as (_ & I0 & _ & S0).
  split; [exact I0|]. split; [exact (S0 (settled_empty _ _ _))|].
  split; [reflexivity|]. split; [reflexivity|].
  (* the cached entry is clean, so the invariant would make b1 decode to vecA *)
  intros I1. discriminate (inv_clean _ _ _ _ I1 id1 vecA eq_refl eq_refl).
Qed.

(* a failed transaction whose cache is NOT scrapped would leave the same kind
   of state behind: unflushed entries over a rolled-back bucket *)
Lemma noscrap_witness :
  let c := c_put plain_inst id1 vecB c_empty in
  absmap plain_inst c (al_get stale_b0) id1 = Some vecB /\
  absmap plain_inst c_empty (al_get stale_b0) id1 = Some vecA.
Proof. split; reflexivity. Qed.

