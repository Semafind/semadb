(* Props_C20.v -- property C20: distance functions equal their definitions on
   every vector length.  The statements; the lemmas are in Proofs_C20.v.
   Exact arithmetic over Z: "up to floating-point rounding" is the part the
   theorems do not cover (see Run_C20.v / the harness for that part). *)
From Coq Require Import List NArith ZArith Bool.
From Semadb Require Import AsmParams Model_C20 Proofs_C20.
Import ListNotations.
Open Scope Z_scope.

(* the AVX2/FMA kernels, for EVERY length and every initial register content:
       under the side conditions on the parameters extracted from the .s file
       (blockitems = unroll*lanes, strides = 4*blockitems, tail stride 4, decrement =
       blockitems, every accumulator zeroed and reduced exactly once, result register
       stored: params_ok, a boolean that Coq evaluates) the kernel returns the exact
       sum of terms -- in particular it never reads outside either slice. *)
Theorem c20_kernel_sum : forall P, params_ok P = true ->
  forall (g : N -> N -> Z) xs ys, length xs = length ys ->
  kernel_g P g xs ys = Some (termsum (k_sub P) xs ys).
Proof. intros P H g xs ys E. rewrite (kernel_total P H), E, Nat.leb_refl. reflexivity. Qed.
Print Assumptions c20_kernel_sum.

(* the parameters generated from the current dot.s / euclidean.s satisfy the side conditions *)
Theorem c20_generated_params_ok : params_ok dot_params = true /\ params_ok euc_params = true.
Proof. split; vm_compute; reflexivity. Qed.
Print Assumptions c20_generated_params_ok.

Theorem c20_dot_kernel : forall g xs ys, length xs = length ys ->
  kernel_g dot_params g xs ys = Some (dot xs ys).
Proof. exact (c20_kernel_sum dot_params (proj1 c20_generated_params_ok)). Qed.
Print Assumptions c20_dot_kernel.

Theorem c20_euclidean_kernel : forall g xs ys, length xs = length ys ->
  kernel_g euc_params g xs ys = Some (sqeuclid xs ys).
Proof. exact (c20_kernel_sum euc_params (proj2 c20_generated_params_ok)). Qed.
Print Assumptions c20_euclidean_kernel.

(* the kernels take the count from x only: with a shorter y they read past the end of y
   (error value of the model).  This is why the request validation of C18 matters. *)
Theorem c20_oob_when_lengths_differ : forall P, params_ok P = true ->
  forall (g : N -> N -> Z) xs ys, (length ys < length xs)%nat -> kernel_g P g xs ys = None.
Proof. intros P H g xs ys L. rewrite (kernel_total P H), (proj2 (Nat.leb_gt _ _) L). reflexivity. Qed.
Print Assumptions c20_oob_when_lengths_differ.

(* thresholded bit vectors: word-wise popcount formulas = per-position definitions,
       for every length and every threshold vector *)
Theorem c20_hamming_def : forall th v1 v2, length v1 = length v2 ->
  hamming (pack th v1) (pack th v2) = hamming_def (bits_of th v1) (bits_of th v2).
Proof. intros th v1 v2 H. rewrite hamming_wcount. now apply (wcount_packed N.lxor xorb N.lxor_spec). Qed.
Print Assumptions c20_hamming_def.

Theorem c20_jaccard_def : forall th v1 v2, length v1 = length v2 ->
  jaccard (pack th v1) (pack th v2) = jaccard_def (bits_of th v1) (bits_of th v2).
Proof.
  intros th v1 v2 H. rewrite jaccard_wcount. unfold jaccard_def.
  f_equal; [apply (wcount_packed N.land andb N.land_spec) | apply (wcount_packed N.lor orb N.lor_spec)]; easy.
Qed.
Print Assumptions c20_jaccard_def.

(* padding bits of the last word (and any bit at a position >= len) are zero *)
Theorem c20_pack_padding_zero : forall th v k i, (length v <= 64 * k + i)%nat ->
  N.testbit (nth k (pack th v) 0%N) (N.of_nat i) = false.
Proof.
  intros th v k i H. unfold pack. rewrite nth_pack_bits, testbit_word by apply Nat.le_refl.
  apply nth_overflow. rewrite firstn_length, skipn_length, bits_of_length.
  eapply Nat.le_trans; [apply Nat.le_min_r|]. apply Nat.le_sub_le_add_l.
  eapply Nat.le_trans; [apply Nat.le_min_r | exact H].
Qed.
Print Assumptions c20_pack_padding_zero.

Theorem c20_pack_length : forall th v, length th = length v ->
  length (pack th v) = ((length v + 63) / 64)%nat.
Proof.
  intros th v H. unfold pack. rewrite pack_bits_length, bits_of_length, H, Nat.min_id by apply Nat.le_refl.
  reflexivity.
Qed.
Print Assumptions c20_pack_length.

(* symmetry (haversine: Props_C20_Haversine.v, over R) *)
Theorem c20_symmetry :
  (forall xs ys, sqeuclid xs ys = sqeuclid ys xs) /\ (forall xs ys, dot xs ys = dot ys xs)
  /\ (forall xs ys, cosine xs ys = cosine ys xs) /\ (forall xs ys, negdot xs ys = negdot ys xs)
  /\ (forall x y, hamming x y = hamming y x) /\ (forall x y, jaccard x y = jaccard y x)
  /\ (forall a b, hamming_def a b = hamming_def b a) /\ (forall a b, jaccard_def a b = jaccard_def b a).
Proof.
  split; [exact sqeuclid_sym|]. split; [exact dot_sym|].
  split; [intros; unfold cosine; now rewrite dot_sym|]. split; [intros; unfold negdot; now rewrite dot_sym|].
  split; [exact hamming_sym|]. split; [exact jaccard_sym|].
  split; intros; unfold hamming_def, jaccard_def; [|f_equal]; apply count2_sym;
    [apply xorb_comm | apply andb_comm | apply orb_comm].
Qed.
Print Assumptions c20_symmetry.

(* product quantiser (shard/vectorstore/product.go): the distance between two quantised
       points, sum over the sub-vectors of term(i, code_a i, code_b i), is symmetric whenever the
       term is -- in particular sum_i distFn(centroid_i(a), centroid_i(b)) for both metrics
       the quantiser uses (cosine is mapped to euclidean by newProductQuantizer) *)
Theorem c20_pq_sum_symmetric : forall f : nat -> nat -> nat -> Z, (forall i a b, f i a b = f i b a) ->
  forall i ca cb, pq_sum f i ca cb = pq_sum f i cb ca.
Proof.
  intros f Hf i ca. revert i. induction ca as [|a ca IH]; intros i [|b cb]; simpl; try reflexivity.
  rewrite (Hf i a b), (IH (S i) cb). reflexivity.
Qed.
Print Assumptions c20_pq_sum_symmetric.

Theorem c20_pq_point_dist_symmetric : forall metric sl k cents ca cb,
  pq_point_dist metric sl k cents ca cb = pq_point_dist metric sl k cents cb ca.
Proof. intros. apply c20_pq_sum_symmetric. intros. apply pq_dfn_sym. Qed.
Print Assumptions c20_pq_point_dist_symmetric.

(* the hypotheses are satisfiable by non-trivial data: lengths 33 (one block + 1)
       and 70 (two blocks + 6), mixed signs *)
Definition ex_x (n : nat) : list Z := map (fun i => Z.of_nat i mod 7 - 3) (seq 1 n).
Definition ex_y (n : nat) : list Z := map (fun i => 2 - Z.of_nat (i * i) mod 5) (seq 1 n).
(* ex_y without products of unary numbers: the form in which the examples are evaluated *)
Lemma ex_y_Z : forall n, ex_y n = map (fun i => 2 - (Z.of_nat i * Z.of_nat i) mod 5) (seq 1 n).
Proof. intros n. apply map_ext. intros i. now rewrite Nat2Z.inj_mul. Qed.
Example c20_ex_dot_33 : kernel dot_params (ex_x 33) (ex_y 33) = Some (dot (ex_x 33) (ex_y 33))
  /\ dot (ex_x 33) (ex_y 33) = 3.
Proof. rewrite !ex_y_Z. vm_compute. split; reflexivity. Qed.
Example c20_ex_euclid_70 : kernel euc_params (ex_x 70) (ex_y 70) = Some (sqeuclid (ex_x 70) (ex_y 70))
  /\ sqeuclid (ex_x 70) (ex_y 70) = 476.
Proof. rewrite !ex_y_Z. vm_compute. split; reflexivity. Qed.
Example c20_ex_oob : kernel dot_params (ex_x 70) (ex_y 69) = None /\ kernel euc_params (ex_x 33) (ex_y 32) = None.
Proof. rewrite !ex_y_Z. vm_compute. split; reflexivity. Qed.
Example c20_ex_bits :
  let th := repeat 1 70 in let v1 := ex_x 70 in let v2 := ex_y 70 in
  pack th v1 = [3485998880071096368; 24]%N
  /\ hamming (pack th v1) (pack th v2) = 26%N /\ jaccard (pack th v1) (pack th v2) = (4, 30)%N.
Proof. cbv zeta. rewrite !ex_y_Z. vm_compute. repeat split; reflexivity. Qed.
(* product quantiser, 2 sub-vectors of length 2, 2 centroids each (plain integers as units): under the dot
   metric the distance of a point to a point with the same codes is -|c|^2, not 0 *)
Example c20_ex_pq :
  let cents := [1; 0; 0; 2;   -1; 1; 3; 0] in
  pq_point_dist 1 2 2 cents [0; 1]%nat [1; 1]%nat = -9 /\ pq_point_dist 1 2 2 cents [1; 1]%nat [0; 1]%nat = -9
  /\ pq_point_dist 1 2 2 cents [1; 0]%nat [1; 0]%nat = -6 /\ pq_point_dist 0 2 2 cents [1; 0]%nat [1; 0]%nat = 0
  /\ pq_point_dist 0 2 2 cents [0; 1]%nat [1; 0]%nat = 22
  /\ pq_query_dist 1 2 2 cents [0; 2; 3; 0] [1; 1]%nat = -13.
Proof. vm_compute. repeat split; reflexivity. Qed.
