(* U64.v -- 64-bit words as N < 2^64: xor with the sign bit, complement,
   two's-complement view of int64. *)
From Coq Require Import List NArith ZArith Lia Bool.
From Coq Require Import ZifyBool ZifyN ZifyNat.
From Semadb Require Import Bytes.
Open Scope N_scope.

Definition two63 : N := 9223372036854775808.
Definition two64 : N := 18446744073709551616.
Definition ones64 : N := 18446744073709551615.

Lemma two63_pow : two63 = 2 ^ 63. Proof. reflexivity. Qed.
Lemma two64_pow : two64 = 2 ^ 64. Proof. reflexivity. Qed.
Lemma two64_256 : two64 = 256 ^ N.of_nat 8. Proof. reflexivity. Qed.
Lemma ones64_ones : ones64 = N.ones 64. Proof. reflexivity. Qed.

Lemma land_low_two63 a : a < two63 -> N.land a two63 = 0.
Proof.
  intros Ha. apply N.bits_inj. intros n. rewrite N.land_spec, N.bits_0.
  rewrite two63_pow, N.pow2_bits_eqb.
  destruct (N.eqb_spec 63 n) as [<-|Hn]; [|apply andb_false_r].
  rewrite andb_true_r.
  destruct (N.eq_dec a 0) as [->|Hnz]; [apply N.bits_0|].
  apply N.bits_above_log2. apply N.log2_lt_pow2; [lia|]. rewrite <- two63_pow. exact Ha.
Qed.

Lemma lxor_two63_low a : a < two63 -> N.lxor a two63 = a + two63.
Proof. intros Ha. symmetry. apply N.add_nocarry_lxor. now apply land_low_two63. Qed.

Lemma lxor_lxor a m : N.lxor (N.lxor a m) m = a.
Proof. now rewrite N.lxor_assoc, N.lxor_nilpotent, N.lxor_0_r. Qed.

Lemma lxor_two63_high a : two63 <= a -> a < two64 -> N.lxor a two63 = a - two63.
Proof.
  intros H1 H2. set (a' := a - two63).
  assert (Ha' : a' < two63) by (unfold a', two63, two64 in *; lia).
  replace a with (N.lxor a' two63) at 1.
  2:{ rewrite lxor_two63_low by exact Ha'. unfold a'. lia. }
  apply lxor_lxor.
Qed.

Lemma lxor_two63 a : a < two64 ->
  N.lxor a two63 = if a <? two63 then a + two63 else a - two63.
Proof.
  intros Ha. destruct (N.ltb_spec a two63).
  - now apply lxor_two63_low.
  - now apply lxor_two63_high.
Qed.

Lemma lxor_two63_bound a : a < two64 -> N.lxor a two63 < two64.
Proof. intros Ha. rewrite lxor_two63 by exact Ha. unfold two63, two64 in *. destruct (a <? _) eqn:E; lia. Qed.

Lemma lxor_ones64 a : a < two64 -> N.lxor a ones64 = ones64 - a.
Proof.
  intros Ha. rewrite ones64_ones. change (N.lxor a (N.ones 64)) with (N.lnot a 64).
  assert (Hl : N.log2 a < 64).
  { destruct (N.eq_dec a 0) as [->|Hnz]; [cbn; lia|].
    apply N.log2_lt_pow2; [lia|]. rewrite <- two64_pow. exact Ha. }
  pose proof (N.add_lnot_diag_low a 64 Hl). lia.
Qed.

(* Go's conversions uint64(x) of an int64 and int64(u) of a uint64: the bit pattern is kept *)
Open Scope Z_scope.
Definition in_i64 (z : Z) : Prop := - 9223372036854775808 <= z < 9223372036854775808.
Definition i64_to_u64 (z : Z) : N := Z.to_N (z mod 18446744073709551616).
Definition u64_to_i64 (u : N) : Z :=
  if (u <? two63)%N then Z.of_N u else Z.of_N u - 18446744073709551616.

(* the unsigned reading of an int64: negative values are shifted up by 2^64 *)
Lemma i64_to_u64_Z z : in_i64 z ->
  Z.of_N (i64_to_u64 z) = if z <? 0 then z + 18446744073709551616 else z.
Proof.
  unfold in_i64, i64_to_u64. intros Hz. rewrite Z2N.id by (apply Z.mod_pos_bound; reflexivity).
  destruct (Z.ltb_spec z 0).
  - symmetry. apply (Z.mod_unique_pos z _ (-1)); lia.
  - apply Z.mod_small. lia.
Qed.

Lemma i64_to_u64_bound z : (i64_to_u64 z < two64)%N.
Proof. unfold i64_to_u64, two64. pose proof (Z.mod_pos_bound z 18446744073709551616 eq_refl). lia. Qed.

Lemma i64_u64_roundtrip z : in_i64 z -> u64_to_i64 (i64_to_u64 z) = z.
Proof.
  intros Hz. pose proof (i64_to_u64_Z z Hz) as E. unfold u64_to_i64, in_i64, two63 in *.
  destruct (Z.ltb_spec z 0); destruct (N.ltb_spec (i64_to_u64 z) 9223372036854775808); lia.
Qed.
