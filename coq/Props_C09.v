(* Props_C09.v -- property C09: concurrent searches and writes are safe and every search
   sees committed data.  Statements, each with its derivation from the lemmas of Proofs_C09.v and Proofs_C09b.v.

   The model is described at the head of Model_C09.v.  A schedule is ANY list of thread ids (`run cfg sched st`,
   threads that cannot move are skipped); `init p0 bs progs` = cold start with points bucket p0, batch stream bs
   and one search program per reader (warm and partially warm starts are reached by scheduling readers first).
   `cfg_guarded` = fix 581ddda present (a bucket of an ended transaction fails cleanly).

   Quantifiers: every configuration (any index function, any batch semantics), every initial bucket,
   every batch stream, any number of readers with arbitrary search programs, every schedule. *)
From Coq Require Import List NArith ZArith Arith Bool Lia.
From Semadb Require Import Bytes Value Obs Model_C01 Model_C09 Proofs_C09 Proofs_C09b ItemCacheLocks.
From Semadb Require Run_C09.
Import ListNotations.
Open Scope nat_scope.

(* serial schedules (transactions do not overlap: a thread moves only while every other thread is
   outside a transaction): no crash, and every search returns exactly the sequential answer on its
   snapshot -- so it fails only if the search would fail when run alone on that committed version,
   and every returned point is live in the reader's snapshot version.
   It is not enough that the CACHE ACCESSES do not overlap: a reader's block has to start at its begin
   (the snapshot), not at its cache acquisition -- c09_spurious_refuted is a schedule with
   non-overlapping cache accesses on which a search fails. *)
Theorem c09_serial_safe :
  forall (cfg : config) (p0 : pstore) (bs : list batch) (progs : list prog) (sched : list tid),
    serial_run cfg sched (init p0 bs progs) ->
    let st := run cfg sched (init p0 bs progs) in
    st_crashed st = false /\
    forall r s o p, nth_error (st_rs st) r = Some (RDone s o) -> nth_error progs r = Some p ->
      o = answer cfg p (snd s) /\
      nth_error (committed st) (fst s) = Some (snd s) /\
      In (snd s) (seq_versions cfg bs p0) /\
      (forall rows, o = Ok rows -> rows_live (snd s) rows) /\
      ((forall ps, In ps (seq_versions cfg bs p0) -> exists rows, answer cfg p ps = Ok rows) ->
       exists rows, o = Ok rows /\ rows_live (snd s) rows).
Proof.
  intros cfg p0 bs progs sched Hs st. destruct (serial_safe cfg p0 bs progs sched Hs) as [A B]. split; [exact A|].
  intros r s o p Hn Hp. pose proof (B r s o p Hn Hp) as B1.
  destruct (done_snapshot cfg p0 bs progs sched r s o Hn) as (C1 & C2 & C3).
  assert (C4 : forall rows, o = Ok rows -> rows_live (snd s) rows) by (intros rows ->; exact C3).
  repeat split; auto. intros Hsound. destruct (Hsound _ C2) as [rows E]. rewrite <- B1 in E. eauto.
Qed.
Print Assumptions c09_serial_safe.

(* EVERY schedule: a point a search returns (it passed the lookup in the reader's own snapshot) is
   live in the reader's snapshot version with exactly the returned document; that version is a
   committed one and it was the current version at the reader's begin step, which lies between the
   search's start and end (the window the harness records). *)
Theorem c09_results_were_live :
  forall (cfg : config) (p0 : pstore) (bs : list batch) (progs : list prog) (sched : list tid)
         (r : nat) (s : snapshot) (rows : list prow),
    let st0 := init p0 bs progs in
    nth_error (st_rs (run cfg sched st0)) r = Some (RDone s (Ok rows)) ->
    rows_live (snd s) rows /\
    nth_error (committed (run cfg sched st0)) (fst s) = Some (snd s) /\
    exists pre post p, sched = pre ++ TReader r :: post /\
                       nth_error (st_rs (run cfg pre st0)) r = Some (RIdle p) /\
                       cur_snapshot (run cfg pre st0) = s.
Proof.
  intros cfg p0 bs progs sched r s rows st0 H. destruct (done_snapshot cfg p0 bs progs sched r s _ H) as (A & _ & B).
  split; [exact B|]. split; [exact A|]. eapply begin_moment; eauto.
  intros ph0 H0. destruct (init_idle _ _ _ _ _ H0) as (p & _ & ->). reflexivity.
Qed.
Print Assumptions c09_results_were_live.

(* the same liveness in the vocabulary of the reference store of C01 *)
Theorem c09_rows_live_in_store :
  forall (ps : pstore) (rows : list prow),
    NoDup (map fst (store_of ps)) -> rows_live ps rows ->
    Forall (fun r => st_get (fst (snd r)) (store_of ps) = Some (snd (snd r))) rows.
Proof.
  intros ps rows Hn H. eapply Forall_impl; [|exact H]. intros [n [id d]] Hr. simpl in *.
  apply st_get_unique; [exact Hn|]. apply (in_map snd _ _ (ps_get_in _ _ _ Hr)).
Qed.
Print Assumptions c09_rows_live_in_store.

(* final state: once the writer has finished its batches, the committed versions are the sequential
   application of the batches in call (= commit) order -- on the reference spec of C01 whenever the
   batch semantics refines it: S_{k+1} = fst (apply_spec b_k S_k) if the batch succeeds, S_k
   otherwise; a cold cache agrees with the index of the final version; the registered (warm) cache
   agrees with it too PROVIDED the schedule was calm: no storage commit while a reader's transaction
   is open and no removal of the manager entry (eviction, Release, scrap by a failing reader) while
   the writer holds its write lock (C11's finding; c09_evict_stale_refuted_v0 is the counterexample). *)
Theorem c09_final_state :
  forall (cfg : config) (p0 : pstore) (bs : list batch) (progs : list prog) (sched : list tid),
    let st := run cfg sched (init p0 bs progs) in
    writer_finished st ->
    committed st = seq_versions cfg bs p0 /\
    st_cur st = last (seq_versions cfg bs p0) [] /\
    (forall sc maxsize, refines_spec cfg sc maxsize ->
       map store_of (committed st) = spec_versions sc maxsize bs (store_of p0)) /\
    (forall h, coherent cfg (st_cur st) (empty_cache h)) /\
    (calm_run cfg sched (init p0 bs progs) ->
     forall cid, st_mgr st = Some cid ->
       exists c, nth_error (st_heap st) cid = Some c /\ coherent cfg (st_cur st) c).
Proof.
  intros cfg p0 bs progs sched st Hf. pose proof (final_versions cfg p0 bs progs sched Hf) as Hv. fold st in Hv.
  split; [exact Hv|]. split; [rewrite <- Hv; symmetry; apply committed_last|].
  split; [intros sc ms R; rewrite Hv; apply seq_versions_spec; exact R|]. split; [intros h; apply coherent_empty|].
  intros Hc cid Hm. apply registered_coherent; [apply run_GI; [exact Hc|apply init_GI]|apply Hf|exact Hm].
Qed.
Print Assumptions c09_final_state.

(* coherent caches (cold or warm) answer every read like the index of that version: warm = cold *)
Theorem c09_coherent_answers :
  forall (cfg : config) (ps : pstore) (c : cache),
    coherent cfg ps c ->
    (forall k, cache_get cfg ps c k = idx_get (cfg_index cfg ps) k) /\
    cache_scan cfg ps c = scan_result (idx_get (cfg_index cfg ps)) (cfg_keys cfg).
Proof. intros cfg ps c H. split; [intros k; apply coherent_cache_get|apply coherent_cache_scan]; exact H. Qed.
Print Assumptions c09_coherent_answers.

(* at every moment the committed versions are a prefix of the sequential timeline *)
Theorem c09_committed_prefix :
  forall (cfg : config) (p0 : pstore) (bs : list batch) (progs : list prog) (sched : list tid),
    exists rest, seq_versions cfg bs p0 = committed (run cfg sched (init p0 bs progs)) ++ rest.
Proof. intros. rewrite <- (run_timeline cfg p0 bs progs sched). apply timeline_committed. Qed.
Print Assumptions c09_committed_prefix.

(* the timeline the running check judges against is this spec timeline (batch outputs checked first, code 101) *)
Theorem c09_run_timeline :
  forall (sc : schema) (maxsize : N) (bs : list (batch * bout)) (s : store),
    Run_C09.outputs_ok sc maxsize bs s = true ->
    Run_C09.versions sc maxsize bs s = spec_versions sc maxsize (map fst bs) s.
Proof.
  intros sc maxsize bs. induction bs as [|[b o] bs IH]; intros s H; simpl in *; auto.
  destruct (apply_spec sc maxsize b s) as [s' m] eqn:E. apply andb_true_iff in H. destruct H as [H1 H2].
  f_equal. simpl. destruct o as [ids|k|w]; destruct m as [ids'|ks]; simpl in H1; try discriminate; apply IH; auto.
Qed.
Print Assumptions c09_run_timeline.

(* the known finding behind code 191: a reader with snapshot v0 uses the shared cache after the
   writer updated it to I_1, committed v1 and unlocked; it finds the node inserted by that batch and
   fails the lookup in its own snapshot.  The cache accesses of the two transactions do not overlap
   (cache_serial_run), the search succeeds sequentially on v0 and on v1; with or without fix 581ddda. *)
Theorem c09_spurious_refuted :
  forall g : bool,
    let cfg := toy_cfg g in
    let st0 := init w_p0 [w_batch] [w_q_get] in
    let st := run cfg w_sched_spurious st0 in
    cache_serial_run cfg w_sched_spurious st0 /\
    nth_error (st_rs st) 0 = Some (RDone (0, w_p0) FailNotExist) /\
    st_crashed st = false /\ writer_finished st /\
    answer cfg w_q_get w_p0 = Ok [(1%N, (w_id1, w_doc))] /\
    answer cfg w_q_get (st_cur st) = Ok [(2%N, (w_id2, w_doc)); (1%N, (w_id1, w_doc))].
Proof. intros g. destruct g; vm_compute; repeat split. Qed.
Print Assumptions c09_spurious_refuted.

(* the shared bucket handle: three readers of the same version, no writer at all.  The reader
   whose handle was installed last finishes first; the other one then misses in the cache and scans
   through the dead handle: a clean error "transaction has ended" with fix 581ddda (code 192), a
   process crash in the pinned tree.  Each search alone answers correctly. *)
Theorem c09_shared_handle_refuted :
  let st0 := init w_p0 [] [w_q_scan; w_q_get; w_q_get] in
  (forall g r, r < 3 ->
     answer (toy_cfg g) (nth r [w_q_scan; w_q_get; w_q_get] PFail) w_p0 = Ok [(1%N, (w_id1, w_doc))]) /\
  (let st := run (toy_cfg true) w_sched_shared st0 in
   st_crashed st = false /\
   st_rs st = [RDone (0, w_p0) FailHandleDead; RDone (0, w_p0) (Ok [(1%N, (w_id1, w_doc))]);
               RDone (0, w_p0) (Ok [(1%N, (w_id1, w_doc))])]) /\
  (let st := run (toy_cfg false) w_sched_shared st0 in
   st_crashed st = true /\ nth_error (st_rs st) 0 = Some (RDone (0, w_p0) Crashed)).
Proof.
  split; [|vm_compute; repeat split].
  intros g r Hr. destruct g; destruct r as [|[|[|r]]]; try lia; vm_compute; reflexivity.
Qed.
Print Assumptions c09_shared_handle_refuted.

(* what fix 581ddda establishes: with the guard no schedule crashes the process, every outcome is Ok
   or a clean failure *)
Theorem c09_guard_no_crash :
  forall (cfg : config) (p0 : pstore) (bs : list batch) (progs : list prog) (sched : list tid),
    cfg_guarded cfg = true ->
    let st := run cfg sched (init p0 bs progs) in
    st_crashed st = false /\
    forall r s o, nth_error (st_rs st) r = Some (RDone s o) ->
                  match o with Ok _ | FailNotExist | FailHandleDead | FailOther => True | Crashed => False end.
Proof.
  intros cfg p0 bs progs sched G st. split; [apply run_no_crash; [exact G|reflexivity]|]. intros r s o H.
  destruct (done_snapshot cfg p0 bs progs sched r s o H) as (_ & _ & S). destruct o; try exact I. simpl in S. congruence.
Qed.
Print Assumptions c09_guard_no_crash.

(* why c09_final_state needs `calm` for the warm cache: the manager entry is evicted while the writer
   holds its lock, a reader registers a cache built from the old snapshot, the commit does not reach
   it: after the writer has finished the registered cache still answers with I_0 (C11 / C08: F6).
   _v0: this is the manager BEFORE fix 2d185e4 (a successful Commit now discards a cache registered under
   the name in the meantime; Props_C11.c11_coherent is the statement for the repaired manager). The model of
   this file keeps the pinned commit step: it allows MORE behaviours than the repaired code, so what is
   proved here for every schedule still holds of the code; this witness no longer describes it. *)
Theorem c09_evict_stale_refuted_v0 :
  let cfg := toy_cfg true in
  let st0 := init w_p0 [w_batch] [w_q_get] in
  let st := run cfg w_sched_evict st0 in
  writer_finished st /\ st_crashed st = false /\
  exists cid c, st_mgr st = Some cid /\ nth_error (st_heap st) cid = Some c /\
                cache_get cfg (st_cur st) c 0%N = Some [1%N] /\
                idx_get (cfg_index cfg (st_cur st)) 0%N = Some [2%N; 1%N].
Proof. vm_compute. repeat split. eexists _, _. repeat split. Qed.
Print Assumptions c09_evict_stale_refuted_v0.

(* the forced schedules of the check (harness/c09forced.go): the writer is stopped INSIDE its write
   transaction -- it has write-locked the registered cache cid and updated it in place to the index of the
   version it is about to commit (nx = Some _) or is going to roll back (nx = None); the storage has not
   committed.  ANY state of that shape (not only reachable ones; whatever the shared cache holds, whatever
   the other readers are doing), any idle reader r with any search program p: letting r alone run, after
   finitely many steps (and for every larger number: a finished reader does not move) its search has ended
   with snapshot = the current committed version and outcome = exactly the sequential answer on it -- it
   took a private cold cache, so it saw nothing of the writer's uncommitted update -- and nothing else
   has changed: not the heap (so not the write-locked cache), not the committed versions, not the
   writer's phase or its remaining batches, no other reader; the manager entry only if the program itself
   gives up (`answer` = FailOther: With scraps the cache of that name -- the manager entry the WRITER is
   holding, C11's finding). *)
Theorem c09_inside_write_window :
  forall (cfg : config) (st : state) (cid : nat) (nx : option pstore) (r : nat) (p : prog),
    st_crashed st = false ->
    st_wph st = WInTx cid nx -> st_mgr st = Some cid ->
    nth_error (st_rs st) r = Some (RIdle p) ->
    exists n0, forall n, n0 <= n ->
      let st' := run cfg (repeat (TReader r) n) st in
      nth_error (st_rs st') r = Some (RDone (cur_snapshot st) (answer cfg p (st_cur st))) /\
      st_crashed st' = false /\
      st_heap st' = st_heap st /\ st_hist st' = st_hist st /\ st_cur st' = st_cur st /\
      st_wph st' = st_wph st /\ st_todo st' = st_todo st /\
      (forall r', r' <> r -> nth_error (st_rs st') r' = nth_error (st_rs st) r') /\
      st_mgr st' = match answer cfg p (st_cur st) with FailOther => None | _ => Some cid end.
Proof.
  intros cfg st cid nx r p Hcr Hw Hm Hn.
  destruct (locked_search cfg st cid r p Hcr Hm) as [n0 H]; [unfold wheld; rewrite Hw; apply Nat.eqb_refl|exact Hn|].
  exists n0. intros n Hle st'. unfold st'. rewrite (H n Hle). simpl. rewrite Hm. repeat split.
  - apply nth_upd_eq. eapply nth_error_lt; eauto.
  - intros r' Hne. apply nth_upd_neq. congruence.
Qed.
Print Assumptions c09_inside_write_window.

(* the seeded defect "the writer releases the cache lock before the storage commit" (codes 171 / 191).
   `w_early_unlock` is the state of the toy configuration in which the writer has updated the registered
   cache to the index of the next version w_p1 and is inside its transaction -- with the write lock
   dropped (st_wph = WIdle instead of WInTx 0 (Some w_p1), nothing else differs): the only committed
   version is w_p0, the registered cache is coherent with w_p1 and not write-locked.  A search run
   start-to-end from there acquires the shared cache, finds node 2 under key 0 and fails the lookup in
   its own snapshot: FailNotExist, although it answers Ok on the only committed version; from the state
   WITH the lock held the same five steps end in that Ok answer (c09_inside_write_window).
   This state is NOT a state of the model: the model's writer unlocks after the storage commit
   (WInTx -> WCommitted -> WIdle), and in every state reachable from a cold start by any schedule every
   item of every cache object is an entry of the index of a COMMITTED version unless the object is
   write-locked by the writer inside its transaction (lemma c09_lock_covers_commit in Proofs_C09b.v, for
   all configurations) -- hence the last conjunct: no initial bucket, batch stream, readers and
   schedule reach it. *)
Theorem c09_early_unlock_refuted :
  let cfg := toy_cfg true in
  let locked := run cfg [TWriter] (init w_p0 [w_batch] [w_q_get]) in
  let st := w_early_unlock in
  st_wph locked = WInTx 0 (Some w_p1) /\ st_wph st = WIdle /\
  st = mkState (st_hist locked) (st_cur locked) (st_heap locked) (st_mgr locked) WIdle
               (st_todo locked) (st_rs locked) (st_crashed locked) /\
  committed st = [w_p0] /\ st_mgr st = Some 0 /\ wheld st 0 = false /\
  (exists c, nth_error (st_heap st) 0 = Some c /\ coherent cfg w_p1 c /\
             idx_get (c_items c) 0%N = Some [2%N; 1%N] /\
             idx_get (cfg_index cfg (st_cur st)) 0%N = Some [1%N]) /\
  nth_error (st_rs (run cfg (repeat (TReader 0) 5) st)) 0 = Some (RDone (0, w_p0) FailNotExist) /\
  answer cfg w_q_get (st_cur st) = Ok [(1%N, (w_id1, w_doc))] /\
  nth_error (st_rs (run cfg (repeat (TReader 0) 5) locked)) 0 = Some (RDone (0, w_p0) (Ok [(1%N, (w_id1, w_doc))])) /\
  (forall g p0 bs progs sched, run (toy_cfg g) sched (init p0 bs progs) <> st).
Proof.
  intros cfg locked st. repeat (split; [vm_compute; reflexivity|]).
  split; [|repeat (split; [vm_compute; reflexivity|]); exact early_unlock_unreachable].
  eexists. split; [reflexivity|]. split; [|split; vm_compute; reflexivity].
  apply (coherent_w_update cfg w_p0 w_p1), coherent_empty.
Qed.
Print Assumptions c09_early_unlock_refuted.

(* The hypotheses are satisfiable.  A serial schedule with a warm-up reader, a full write transaction and two more readers: all finish
   with the sequential answers (the last two see the inserted point) *)
Definition ex_sched_serial : list tid :=
  [TReader 0; TReader 0; TReader 0; TReader 0; TReader 0;
   TWriter; TWriter; TWriter;
   TReader 1; TReader 1; TReader 1; TReader 1; TReader 1; TReader 1;
   TEvict;
   TReader 2; TReader 2; TReader 2; TReader 2; TReader 2].
Example ex_serial :
  let cfg := toy_cfg false in
  let st0 := init w_p0 [w_batch] [w_q_get; w_q_scan; w_q_get] in
  serial_run cfg ex_sched_serial st0 /\ calm_run cfg ex_sched_serial st0 /\
  writer_finished (run cfg ex_sched_serial st0) /\
  map (fun ph => match ph with RDone s (Ok rows) => (fst s, map fst rows) | _ => (9, []) end)
      (st_rs (run cfg ex_sched_serial st0)) = [(0, [1%N]); (1, [2%N; 1%N]); (1, [2%N; 1%N])].
Proof. vm_compute. repeat split. Qed.

(* a calm schedule that is not serial: two readers interleaved step by step, then the writer *)
Definition ex_sched_calm : list tid :=
  [TReader 0; TReader 1; TReader 0; TReader 1; TReader 0; TReader 1; TReader 0; TReader 1; TReader 0; TReader 1;
   TWriter; TWriter; TWriter].
Example ex_calm :
  let cfg := toy_cfg true in
  let st0 := init w_p0 [w_batch] [w_q_get; w_q_get] in
  calm_run cfg ex_sched_calm st0 /\ ~ serial_run cfg ex_sched_calm st0 /\
  writer_finished (run cfg ex_sched_calm st0) /\
  exists cid, st_mgr (run cfg ex_sched_calm st0) = Some cid.
Proof.
  split; [vm_compute; repeat split|]. split; [vm_compute; intuition discriminate|].
  split; [vm_compute; repeat split|]. vm_compute. eexists. reflexivity.
Qed.

(* the toy configuration applies batches by the reference spec of C01 *)
Example ex_refines : forall g, refines_spec (toy_cfg g) [] 1000%N.
Proof. intros g. apply spec_apply_refines. Qed.

(* the sequential answers of the witness queries are Ok on every version of the witness timeline *)
Example ex_sound :
  forall ps, In ps (seq_versions (toy_cfg true) [w_batch] w_p0) ->
             exists rows, answer (toy_cfg true) w_q_scan ps = Ok rows.
Proof. intros ps [<-|[<-|[]]]; vm_compute; eexists; reflexivity. Qed.

(* the order of one write batch in the model is the bracket that gen/gen_tx_order.py reads off shard/shard.go on every
   run (TxOrder.tx_bracket: new cache transaction, storage transaction begins, callback, storage transaction ends,
   cache Commit): the cache stays write-locked across the storage commit, nothing is committed before the second
   step, exactly one version is appended by it, the third step only releases the lock. A code change that settles
   the cache transaction inside the storage transaction is refused by the translator. *)
Theorem c09_writer_follows_bracket : forall cfg st st1 st2 st3,
  st_wph st = WIdle ->
  step_writer cfg st = Some st1 -> step_writer cfg st1 = Some st2 -> step_writer cfg st2 = Some st3 ->
  step_events (st_wph st) (st_wph st1) ++ step_events (st_wph st1) (st_wph st2) ++ step_events (st_wph st2) (st_wph st3)
    = TxOrder.tx_bracket true /\
  (exists cid nx, st_wph st1 = WInTx cid nx /\ committed st1 = committed st /\ wheld st1 cid = true /\
                  (exists ok, st_wph st2 = WCommitted cid ok /\ wheld st2 cid = true /\
                              committed st2 = committed st ++ [st_cur st2] /\ st_heap st2 = st_heap st1)) /\
  st_wph st3 = WIdle /\ committed st3 = committed st2.
Proof.
  intros cfg st st1 st2 st3 Hi H1 H2 H3.
  destruct (step_writer_inv _ _ _ H1) as [b rest cid c h' nx _ _ _ _ _ _| |]; [|congruence..].
  injection H2 as <-. injection H3 as <-. rewrite Hi. unfold wheld, committed. simpl.
  split; [reflexivity|]. split; [|split; reflexivity]. exists cid, nx.
  rewrite Nat.eqb_refl. repeat split. eexists. repeat split.
Qed.
Print Assumptions c09_writer_follows_bracket.

Example ex_bracket :
  let cfg := toy_cfg true in
  let st := init w_p0 [w_batch] [] in
  match step_writer cfg st with
  | Some st1 => match step_writer cfg st1 with
                | Some st2 => match step_writer cfg st2 with
                              | Some st3 => st_wph st = WIdle /\ committed st3 = [w_p0; w_p1]
                              | None => False
                              end
                | None => False
                end
  | None => False
  end.
Proof. vm_compute. split; reflexivity. Qed.

(* the hypotheses of c09_inside_write_window on a reachable state: the writer has locked and updated the
   registered cache (key 0 already lists the node 2 it is about to commit) and is stopped inside its
   transaction; the idle reader's search (point read + full scan), run start to end, answers from the
   only committed version w_p0; the write-locked cache, the writer and the manager entry are untouched *)
Example ex_inside_window :
  let cfg := toy_cfg true in
  let st := run cfg [TWriter] (init w_p0 [w_batch] [w_q_scan]) in
  let st' := run cfg (repeat (TReader 0) 6) st in
  st_crashed st = false /\ st_wph st = WInTx 0 (Some w_p1) /\ st_mgr st = Some 0 /\
  nth_error (st_rs st) 0 = Some (RIdle w_q_scan) /\
  (exists c, nth_error (st_heap st) 0 = Some c /\ idx_get (c_items c) 0%N = Some [2%N; 1%N]) /\
  answer cfg w_q_scan (st_cur st) = Ok [(1%N, (w_id1, w_doc))] /\
  nth_error (st_rs st') 0 = Some (RDone (0, w_p0) (Ok [(1%N, (w_id1, w_doc))])) /\
  st_heap st' = st_heap st /\ st_wph st' = st_wph st /\ st_mgr st' = Some 0.
Proof.
  vm_compute. repeat (split; [reflexivity|]).
  split; [eexists; split; reflexivity|]. repeat (split; [reflexivity|]). reflexivity.
Qed.

(* the same with a batch that is going to roll back (nx = None: the id exists already) *)
Example ex_inside_window_rollback :
  let cfg := toy_cfg true in
  let st := run cfg [TWriter] (init w_p0 [w_batch_bad] [w_q_scan]) in
  let st' := run cfg (repeat (TReader 0) 6) st in
  st_crashed st = false /\ st_wph st = WInTx 0 None /\ st_mgr st = Some 0 /\
  nth_error (st_rs st) 0 = Some (RIdle w_q_scan) /\
  nth_error (st_rs st') 0 = Some (RDone (0, w_p0) (Ok [(1%N, (w_id1, w_doc))])) /\
  st_heap st' = st_heap st /\ st_wph st' = st_wph st /\ st_mgr st' = Some 0.
Proof. vm_compute. repeat (split; [reflexivity|]). reflexivity. Qed.

(* Lock discipline of the item caches. The models treat every operation of an ItemCache as atomic with respect to
   the other operations on the same cache, and the cache manager sizes every registered cache (SizeInMemory) while
   their users run. gen/gen_itemcache_locks.py reads shard/cache/itemcache.go on every run and refuses any shape
   other than: an exported method that works on the item map holds the cache mutex for its whole body; an
   unexported helper that does is only called from such methods. *)
Theorem c09_itemcache_methods_locked :
  forallb (fun m => let '(_, touches, locks, exported) := m in implb (touches && exported) locks)
          ItemCacheLocks.itemcache_methods = true
  /\ (8 <= length ItemCacheLocks.itemcache_methods)%nat.
Proof. vm_compute. split; [reflexivity|repeat constructor]. Qed.
Print Assumptions c09_itemcache_methods_locked.
