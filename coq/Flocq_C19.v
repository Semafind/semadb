(* Flocq_C19.v -- the sign-magnitude order of Model_C19.f64_ord on bit patterns
   IS the IEEE-754 comparison of Flocq on the decoded binary64 values.
   Turns the modelling assumption "f64_ord is the IEEE order on non-NaN doubles
   (with -0 = +0)" into a theorem.  No axiom is declared here; the real-number
   axioms of the standard library come in only through Flocq. *)
From Coq Require Import List NArith ZArith Lia Bool Reals.
From Coq Require Import ZifyBool ZifyN.
From Coq Require Import SpecFloat.
From Flocq Require Import Core BinarySingleNaN Binary Bits.
From Semadb Require Import Bytes U64 KeyLayout Model_C19 Proofs_C19.
Open Scope Z_scope.

Definition sf_of_bits (x : Z) : spec_float := FF2SF (binary_float_of_bits_aux 52 11 x).

Lemma B2SF_b64 x : Binary.B2SF 53 1024 (b64_of_bits x) = sf_of_bits x.
Proof. exact (B2SF_FF2B _ _ _ _). Qed.

Lemma Bcompare_b64 x y :
  Binary.Bcompare 53 1024 (b64_of_bits x) (b64_of_bits y) = SFcompare (sf_of_bits x) (sf_of_bits y).
Proof.
  unfold Binary.Bcompare, BinarySingleNaN.Bcompare.
  now rewrite !B2SF_B2BSN, !B2SF_b64.
Qed.

Lemma is_nan_b64 x : Binary.is_nan 53 1024 (b64_of_bits x) = is_nan_SF (sf_of_bits x).
Proof. rewrite <- B2SF_b64. now destruct (b64_of_bits x). Qed.

Lemma is_finite_b64 x : Binary.is_finite 53 1024 (b64_of_bits x) = is_finite_SF (sf_of_bits x).
Proof. rewrite <- B2SF_b64. now destruct (b64_of_bits x). Qed.

Definition sord (s : bool) (m : Z) : Z := if s then - m else m.

(* [sf_mag f s m]: f is the non-NaN value with sign bit s whose 63 low bits
   (exponent field * 2^52 + mantissa field) are m *)
Inductive sf_mag : spec_float -> bool -> Z -> Prop :=
| sfm_zero s : sf_mag (S754_zero s) s 0
| sfm_fin s p ex :
    -1074 <= ex -> ex <= 971 -> Zpos p < 9007199254740992 ->
    (-1074 < ex -> 4503599627370496 <= Zpos p) ->
    sf_mag (S754_finite s p ex) s ((ex + 1074) * 4503599627370496 + Zpos p)
| sfm_inf s : sf_mag (S754_infinity s) s 9218868437227405312.

Lemma split_facts x : 0 <= x < 18446744073709551616 ->
  let m := x mod 4503599627370496 in
  let e := (x / 4503599627370496) mod 2048 in
  0 <= m < 4503599627370496 /\ 0 <= e < 2048 /\
  x mod 9223372036854775808 = e * 4503599627370496 + m /\
  (4503599627370496 * 2048 <=? x) = (9223372036854775808 <=? x).
Proof. intros Hx m e. subst m e. Z.div_mod_to_equations. lia. Qed.

Lemma aux_unfold x :
  binary_float_of_bits_aux 52 11 x =
  let sx := 4503599627370496 * 2048 <=? x in
  let mx := x mod 4503599627370496 in
  let ex := (x / 4503599627370496) mod 2048 in
  if Zeq_bool ex 0 then
    match mx with
    | Z0 => F754_zero sx
    | Zpos px => F754_finite sx px (-1074)
    | Zneg _ => F754_nan false xH
    end
  else if Zeq_bool ex 2047 then
    match mx with
    | Z0 => F754_infinity sx
    | Zpos plx => F754_nan sx plx
    | Zneg _ => F754_nan false xH
    end
  else
    match mx + 4503599627370496 with
    | Zpos px => F754_finite sx px (ex + -1074 - 1)
    | _ => F754_nan false xH
    end.
Proof. reflexivity. Qed.

Lemma decode_non_nan x :
  0 <= x < 18446744073709551616 ->
  x mod 9223372036854775808 <= 9218868437227405312 ->
  sf_mag (sf_of_bits x) (9223372036854775808 <=? x) (x mod 9223372036854775808).
Proof.
  intros Hx Hnn. unfold sf_of_bits. rewrite aux_unfold.
  destruct (split_facts x Hx) as (Hm & He & Hmag & Hs).
  cbv zeta. rewrite Hs, Hmag in *. clear Hs Hmag.
  set (s := 9223372036854775808 <=? x). clearbody s.
  set (m := x mod 4503599627370496) in *. set (e := (x / 4503599627370496) mod 2048) in *.
  clearbody m e. clear Hx x.
  destruct (Zeq_bool e 0) eqn:E0.
  - apply Zeq_bool_eq in E0. subst e.
    destruct m as [|p|p]; cbn [FF2SF].
    + apply sfm_zero.
    + replace (0 * 4503599627370496 + Z.pos p) with ((-1074 + 1074) * 4503599627370496 + Z.pos p) by lia.
      apply sfm_fin; lia.
    + lia.
  - apply Zeq_bool_neq in E0.
    destruct (Zeq_bool e 2047) eqn:E1.
    + apply Zeq_bool_eq in E1. subst e.
      assert (m = 0) by lia. subst m. cbn [FF2SF].
      apply sfm_inf.
    + apply Zeq_bool_neq in E1.
      destruct (m + 4503599627370496) as [|p|p] eqn:Ep; try lia.
      cbn [FF2SF].
      replace (e * 4503599627370496 + m) with ((e + -1074 - 1 + 1074) * 4503599627370496 + Z.pos p) by lia.
      apply sfm_fin; lia.
Qed.

Lemma decode_nan x :
  0 <= x < 18446744073709551616 ->
  9218868437227405312 < x mod 9223372036854775808 ->
  sf_of_bits x = S754_nan.
Proof.
  intros Hx Hnn. unfold sf_of_bits. rewrite aux_unfold.
  destruct (split_facts x Hx) as (Hm & He & Hmag & Hs).
  cbv zeta. rewrite Hs, Hmag in *. clear Hs Hmag.
  set (s := 9223372036854775808 <=? x). clearbody s.
  set (m := x mod 4503599627370496) in *. set (e := (x / 4503599627370496) mod 2048) in *.
  clearbody m e. clear Hx x.
  assert (e = 2047) by lia. subst e.
  cbn. destruct m as [|p|p]; try reflexivity. lia.
Qed.

Lemma sf_mag_not_nan f s m : sf_mag f s m -> is_nan_SF f = false.
Proof. now destruct 1. Qed.

Lemma sf_mag_finite f s m : sf_mag f s m -> is_finite_SF f = (m <? 9218868437227405312).
Proof. destruct 1; [reflexivity | symmetry; apply Z.ltb_lt; lia | reflexivity]. Qed.

Lemma compare_intro c x y :
  match c with Eq => x = y | Lt => x < y | Gt => y < x end -> c = (x ?= y).
Proof.
  destruct c; intros H; symmetry;
    [apply Z.compare_eq_iff | apply Z.compare_lt_iff | apply Z.compare_gt_iff]; exact H.
Qed.

Lemma SFcompare_sf_mag f1 s1 m1 f2 s2 m2 :
  sf_mag f1 s1 m1 -> sf_mag f2 s2 m2 ->
  SFcompare f1 f2 = Some (Z.compare (sord s1 m1) (sord s2 m2)).
Proof.
  intros H1 H2.
  destruct H1 as [s1|s1 p1 e1 A1 B1 C1 D1|s1]; destruct H2 as [s2|s2 p2 e2 A2 B2 C2 D2|s2];
    cbn [SFcompare]; f_equal; destruct s1, s2; cbn [sord].
  all: try (apply compare_intro; lia).
  (* finite / finite with equal signs: exponents first, then mantissas *)
  all: change (Pos.compare_cont Eq p1 p2) with (Z.pos p1 ?= Z.pos p2).
  all: destruct (Z.compare_spec e1 e2); [destruct (Z.compare_spec (Z.pos p1) (Z.pos p2))|..].
  all: apply compare_intro; cbn [CompOpp]; lia.
Qed.

Lemma f64_ord_sord a : (a < two64)%N ->
  f64_ord a = sord (9223372036854775808 <=? Z.of_N a) (Z.of_N a mod 9223372036854775808).
Proof.
  unfold f64_ord, sord, two63, two64. intros Ha.
  destruct (N.ltb_spec a 9223372036854775808).
  - rewrite (proj2 (Z.leb_gt _ _)) by lia. symmetry. apply Z.mod_small. lia.
  - rewrite (proj2 (Z.leb_le _ _)) by lia. rewrite N2Z.inj_sub by assumption.
    f_equal. apply (Z.mod_unique_pos _ _ 1); lia.
Qed.

Lemma N2Z_ltb n m : (n <? m)%N = (Z.of_N n <? Z.of_N m).
Proof. unfold N.ltb, Z.ltb. now rewrite N2Z.inj_compare. Qed.

Lemma f64_nan_mag a :
  f64_nan a = (9218868437227405312 <? Z.of_N a mod 9223372036854775808).
Proof. unfold f64_nan, two63. cbv zeta. now rewrite N2Z_ltb, N2Z.inj_mod. Qed.

Lemma ofN_range a : (a < two64)%N -> 0 <= Z.of_N a < 18446744073709551616.
Proof. unfold two64. lia. Qed.

Lemma f64_sf_mag a : (a < two64)%N -> f64_nan a = false ->
  sf_mag (sf_of_bits (Z.of_N a)) (9223372036854775808 <=? Z.of_N a) (Z.of_N a mod 9223372036854775808).
Proof.
  intros Ha Hn. rewrite f64_nan_mag in Hn.
  apply decode_non_nan; [now apply ofN_range | lia].
Qed.

Lemma f64_sf_nan a : (a < two64)%N -> f64_nan a = true -> sf_of_bits (Z.of_N a) = S754_nan.
Proof.
  intros Ha Hn. rewrite f64_nan_mag in Hn.
  apply decode_nan; [now apply ofN_range | lia].
Qed.

Lemma f64_nan_is_nan a : (a < two64)%N ->
  f64_nan a = Binary.is_nan 53 1024 (b64_of_bits (Z.of_N a)).
Proof.
  intros Ha. rewrite is_nan_b64. destruct (f64_nan a) eqn:Hn.
  - now rewrite f64_sf_nan.
  - symmetry. exact (sf_mag_not_nan _ _ _ (f64_sf_mag a Ha Hn)).
Qed.

(* Flocq's comparison of the decoded doubles is the comparison of f64_ord *)
Lemma f64_ord_Bcompare a b : (a < two64)%N -> (b < two64)%N ->
  f64_nan a = false -> f64_nan b = false ->
  Binary.Bcompare 53 1024 (b64_of_bits (Z.of_N a)) (b64_of_bits (Z.of_N b))
  = Some (Z.compare (f64_ord a) (f64_ord b)).
Proof.
  intros Ha Hb Hna Hnb. rewrite Bcompare_b64.
  rewrite (f64_ord_sord a Ha), (f64_ord_sord b Hb).
  apply SFcompare_sf_mag; now apply f64_sf_mag.
Qed.

Lemma f64_eq_bits a b :
  f64_eq a b = true <-> a = b \/ (f64_is_zero a = true /\ f64_is_zero b = true).
Proof.
  unfold f64_eq, f64_ord. rewrite Z.eqb_eq, !f64_is_zero_iff. unfold two63.
  destruct (N.ltb_spec a 9223372036854775808); destruct (N.ltb_spec b 9223372036854775808); lia.
Qed.

Definition f64_finite (b : N) : bool := (b mod two63 <? 9218868437227405312)%N.

Lemma f64_finite_is_finite a : (a < two64)%N ->
  f64_finite a = Binary.is_finite 53 1024 (b64_of_bits (Z.of_N a)).
Proof.
  intros Ha. rewrite is_finite_b64. unfold f64_finite, two63. rewrite N2Z_ltb, N2Z.inj_mod.
  destruct (f64_nan a) eqn:Hn.
  - rewrite f64_sf_nan by assumption. rewrite f64_nan_mag in Hn. apply Z.ltb_ge. lia.
  - symmetry. exact (sf_mag_finite _ _ _ (f64_sf_mag a Ha Hn)).
Qed.

Lemma f64_finite_not_nan a : f64_finite a = true -> f64_nan a = false.
Proof. unfold f64_finite, f64_nan. cbv zeta. lia. Qed.
