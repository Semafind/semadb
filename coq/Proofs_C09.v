(* Proofs_C09.v -- lemmas for property C09 (model: Model_C09.v).

   Each step function is inverted once into a relation (`writer_step`, `acquire_step`, `use_step`) and the
   invariants are proved from those: snapshots are committed versions (`inv_snap`, every schedule), the
   timeline is conserved (`timeline`, every schedule), the caches are coherent (`GI`, calm schedules), every
   search follows the reference run of its program (`SI`, serial schedules). *)
From Coq Require Import List NArith ZArith Arith Bool Lia.
From Semadb Require Import ListFacts Bytes Value Obs Model_C01 Model_C09.
Import ListNotations.
Open Scope nat_scope.

Lemma upd_nth_length {A} n (x : A) l : length (upd_nth n x l) = length l.
Proof. revert n; induction l as [|y l IH]; intros [|n]; simpl; auto. Qed.

Lemma nth_upd_eq {A} n (x : A) l : n < length l -> nth_error (upd_nth n x l) n = Some x.
Proof. revert n; induction l as [|y l IH]; intros [|n] H; simpl in *; try lia; auto. apply IH; lia. Qed.

Lemma nth_upd_neq {A} n m (x : A) l : n <> m -> nth_error (upd_nth n x l) m = nth_error l m.
Proof.
  revert n m; induction l as [|y l IH]; intros [|n] [|m] H; simpl; auto; try congruence.
Qed.

Lemma nth_error_lt {A} (l : list A) n x : nth_error l n = Some x -> n < length l.
Proof. intros H. apply nth_error_Some. congruence. Qed.

Lemma nth_upd_some {A} n m (x y : A) l :
  nth_error (upd_nth n x l) m = Some y -> (n = m /\ y = x) \/ (n <> m /\ nth_error l m = Some y).
Proof.
  intros H. destruct (Nat.eq_dec n m) as [->|Hn].
  - left. rewrite nth_upd_eq in H; [split; congruence|].
    rewrite <- (upd_nth_length m x l). eapply nth_error_lt; eauto.
  - right. rewrite nth_upd_neq in H by exact Hn. auto.
Qed.

Lemma nth_app_last {A} (l : list A) x : nth_error (l ++ [x]) (length l) = Some x.
Proof. rewrite nth_error_app2 by lia. rewrite Nat.sub_diag. reflexivity. Qed.

Definition stored {A} (h : list A) (n : nat) (x : A) (h' : list A) : Prop :=
  nth_error h' n = Some x /\ forall i, i <> n -> nth_error h' i = nth_error h i.

Lemma stored_upd {A} (h : list A) n x0 x : nth_error h n = Some x0 -> stored h n x (upd_nth n x h).
Proof.
  intros H. split; [apply nth_upd_eq; eapply nth_error_lt; eauto|]. intros i Hi. apply nth_upd_neq; auto.
Qed.

Lemma stored_app {A} (h : list A) x : stored h (length h) x (h ++ [x]).
Proof.
  split; [apply nth_app_last|]. intros i Hi. destruct (Nat.lt_ge_cases i (length h)) as [Hl|Hl].
  - apply nth_error_app1; auto.
  - rewrite (proj2 (nth_error_None h i) Hl). apply nth_error_None. rewrite app_length. simpl. lia.
Qed.

Lemma step_inv cfg st t st' :
  step cfg st t = Some st' ->
  st_crashed st = false /\
  match t with
  | TWriter => step_writer cfg st = Some st'
  | TReader r => exists ph, nth_error (st_rs st) r = Some ph /\ step_reader cfg st r ph = Some st'
  | TEvict => st' = set_mgr st None
  end.
Proof.
  unfold step. intros H. destruct (st_crashed st); [discriminate|]. split; [reflexivity|]. destruct t as [|r|].
  - exact H.
  - destruct (nth_error (st_rs st) r) as [ph|]; [eauto|discriminate].
  - destruct (st_mgr st); [congruence|discriminate].
Qed.

Lemma run_invariant cfg (P : state -> Prop) :
  (forall st t st', step cfg st t = Some st' -> P st -> P st') -> forall sched st, P st -> P (run cfg sched st).
Proof.
  intros Hs sched. induction sched as [|t s IH]; intros st H; simpl; auto.
  apply IH. unfold exec. destruct (step cfg st t) eqn:E; eauto.
Qed.

Lemma run_app cfg s1 s2 st : run cfg (s1 ++ s2) st = run cfg s2 (run cfg s1 st).
Proof. unfold run. apply fold_left_app. Qed.

Lemma init_idle p0 bs progs r ph :
  nth_error (st_rs (init p0 bs progs)) r = Some ph -> exists p, nth_error progs r = Some p /\ ph = RIdle p.
Proof.
  simpl. rewrite nth_error_map. destruct (nth_error progs r) as [p|]; [|discriminate].
  intros H. injection H as <-. eauto.
Qed.

(* the manager's get-or-create: the registered cache, or a cold one in the next free slot *)
Inductive acquired (st : state) : nat -> cache -> Prop :=
| acq_found cid c : st_mgr st = Some cid -> nth_error (st_heap st) cid = Some c -> acquired st cid c
| acq_new h : st_mgr st = None -> acquired st (length (st_heap st)) (empty_cache h).

(* the `upd` of step_writer *)
Definition w_upd (cfg : config) (ps : pstore) (nx : option pstore) (c : cache) : cache :=
  match nx with
  | Some p' => w_update (cfg_index cfg ps) (cfg_index cfg p') c
  | None => mkCache (c_items c) (c_all c) HWriter
  end.

Inductive writer_step (cfg : config) (st : state) : state -> Prop :=
| ws_lock b rest cid c h' nx :
    st_wph st = WIdle -> st_todo st = b :: rest -> cfg_apply cfg b (st_cur st) = nx ->
    acquired st cid c -> (st_mgr st = Some cid -> rlocked st cid = false) ->
    stored (st_heap st) cid (w_upd cfg (st_cur st) nx c) h' ->
    writer_step cfg st (mkState (st_hist st) (st_cur st) h' (Some cid) (WInTx cid nx) rest (st_rs st) (st_crashed st))
| ws_commit cid nx :
    st_wph st = WInTx cid nx ->
    writer_step cfg st (mkState (st_hist st ++ [st_cur st]) (match nx with Some p' => p' | None => st_cur st end)
                                (st_heap st) (st_mgr st) (WCommitted cid (match nx with Some _ => true | None => false end))
                                (st_todo st) (st_rs st) (st_crashed st))
| ws_unlock cid ok :
    st_wph st = WCommitted cid ok ->
    writer_step cfg st (mkState (st_hist st) (st_cur st) (st_heap st) (if ok then st_mgr st else None) WIdle
                                (st_todo st) (st_rs st) (st_crashed st)).

Lemma step_writer_inv cfg st st' : step_writer cfg st = Some st' -> writer_step cfg st st'.
Proof.
  unfold step_writer. destruct (st_wph st) as [|cid nx|cid ok] eqn:Ew.
  - destruct (st_todo st) as [|b rest] eqn:Et; [discriminate|]. destruct (st_mgr st) as [cid|] eqn:Em.
    + destruct (rlocked st cid) eqn:Er; [discriminate|].
      destruct (nth_error (st_heap st) cid) as [c|] eqn:Eh; [|discriminate]. intros H. injection H as <-.
      apply (ws_lock cfg st b rest cid c); auto; [apply acq_found; assumption|eapply stored_upd; eassumption].
    + intros H. injection H as <-.
      apply (ws_lock cfg st b rest _ (empty_cache HWriter)); auto; [apply acq_new; assumption|congruence|apply stored_app].
  - intros H. injection H as <-. exact (ws_commit cfg st cid nx Ew).
  - intros H. injection H as <-. exact (ws_unlock cfg st cid ok Ew).
Qed.

Lemma step_writer_rs cfg st st' :
  step_writer cfg st = Some st' -> st_rs st' = st_rs st /\ st_crashed st' = st_crashed st.
Proof. intros H. destruct (step_writer_inv _ _ _ H); split; reflexivity. Qed.

Definition snap_of (ph : rphase) : option snapshot :=
  match ph with
  | RIdle _ => None
  | RBegun s _ | RUse s _ _ | RLookup s _ | RDone s _ => Some s
  end.

Definition sound (cfg : config) (ph : rphase) : Prop :=
  match ph with
  | RDone s (Ok rows) => rows_live (snd s) rows
  | RDone _ Crashed => cfg_guarded cfg = false
  | _ => True
  end.

Lemma lookup_all_live ps nodes rows : lookup_all ps nodes = Some rows -> rows_live ps rows.
Proof.
  revert rows. induction nodes as [|n nodes IH]; simpl; intros rows H.
  - injection H as <-. constructor.
  - destruct (ps_get n ps) eqn:E1; try discriminate. destruct (lookup_all ps nodes) eqn:E2; try discriminate.
    injection H as <-. constructor; auto. apply IH; auto.
Qed.

Lemma ps_get_in n x ps : ps_get n ps = Some x -> In (n, x) ps.
Proof. exact (aget_In N.eqb_spec n x ps). Qed.

Lemma st_get_unique id d (s : store) :
  NoDup (map fst s) -> In (id, d) s -> st_get id s = Some d.
Proof. exact (In_aget bytes_eqb_spec id d s). Qed.

Inductive acquire_step (st : state) (r : nat) (s : snapshot) (p : prog) : state -> Prop :=
| aq_private cid : st_mgr st = Some cid -> wheld st cid = true ->
    acquire_step st r s p (set_reader st r (RUse s (Private (empty_cache (HReader r))) p))
| aq_shared cid c h' :
    acquired st cid c -> (st_mgr st = Some cid -> wheld st cid = false) ->
    stored (st_heap st) cid (mkCache (c_items c) (c_all c) (HReader r)) h' ->
    acquire_step st r s p (set_reader (set_mgr (set_heap st h') (Some cid)) r (RUse s (Shared cid) p)).

Lemma step_begun cfg st r s p st' : step_reader cfg st r (RBegun s p) = Some st' -> acquire_step st r s p st'.
Proof.
  unfold step_reader, set_reader, set_mgr, set_heap. simpl. destruct (st_mgr st) as [cid|] eqn:Em.
  - destruct (wheld st cid) eqn:Ew.
    + intros H. injection H as <-. rewrite <- Em. eapply aq_private; eassumption.
    + destruct (nth_error (st_heap st) cid) as [c|] eqn:Eh; [|discriminate]. intros H. injection H as <-.
      apply (aq_shared st r s p cid c); [apply acq_found; assumption|auto|eapply stored_upd; eassumption].
  - intros H. injection H as <-.
    apply (aq_shared st r s p _ (empty_cache (HReader r))); [apply acq_new; assumption|congruence|apply stored_app].
Qed.

Definition scan_view (c : cache) (ih : index) (k : key) : option entry :=
  match idx_get (c_items c) k with Some e => Some e | None => idx_get ih k end.

(* one read through a bucket handle that sees index oih (None: its transaction has ended) *)
Inductive refill (cfg : config) (oih : option index) (c : cache) : cache -> Prop :=
| rf_same : refill cfg oih c c
| rf_get ih k e : oih = Some ih -> idx_get ih k = Some e ->
    refill cfg oih c (mkCache ((k, e) :: c_items c) (c_all c) (c_handle c))
| rf_scan ih : oih = Some ih ->
    refill cfg oih c (mkCache (scan_result (scan_view c ih) (cfg_keys cfg) ++ c_items c) true (c_handle c)).

Inductive use_step (cfg : config) (st : state) (r : nat) (s : snapshot) (cr : cref) (c : cache) : state -> Prop :=
| us_read c' p' : refill cfg (handle_index cfg st (c_handle c)) c c' ->
    use_step cfg st r s cr c (put_cache st r s cr c' p')
| us_release nodes : use_step cfg st r s cr c (set_reader st r (RLookup s nodes))
| us_fail o : o = FailOther \/ o = FailHandleDead -> use_step cfg st r s cr c (fail_search st r s o)
| us_crash : cfg_guarded cfg = false ->
    use_step cfg st r s cr c (set_crashed (set_reader st r (RDone s Crashed))).

Lemma step_use cfg st r s cr p st' :
  step_reader cfg st r (RUse s cr p) = Some st' -> exists c, get_cache st cr = Some c /\ use_step cfg st r s cr c st'.
Proof.
  simpl. destruct (get_cache st cr) as [c|]; [|discriminate]. intros H. exists c. split; [reflexivity|].
  destruct p as [nodes| |k cont|cont].
  - injection H as <-. apply us_release.
  - injection H as <-. apply us_fail. auto.
  - destruct (idx_get (c_items c) k) as [e|]; [injection H as <-; apply us_read, rf_same|].
    destruct (handle_index cfg st (c_handle c)) as [ih|] eqn:Eh.
    + destruct (idx_get ih k) as [e|] eqn:Ek; injection H as <-; apply us_read; [eapply rf_get; eauto|apply rf_same].
    + destruct (cfg_guarded cfg) eqn:G; injection H as <-; [apply us_read, rf_same|apply us_crash; exact G].
  - destruct (c_all c); [injection H as <-; apply us_read, rf_same|].
    destruct (handle_index cfg st (c_handle c)) as [ih|] eqn:Eh; [injection H as <-; eapply us_read, rf_scan; exact Eh|].
    destruct (cfg_guarded cfg) eqn:G; injection H as <-; [apply us_fail; auto|apply us_crash; exact G].
Qed.

Lemma step_reader_frame cfg st r ph st' :
  step_reader cfg st r ph = Some st' ->
  st_hist st' = st_hist st /\ st_cur st' = st_cur st /\ st_wph st' = st_wph st /\ st_todo st' = st_todo st /\
  (st_crashed st' = st_crashed st \/ cfg_guarded cfg = false) /\
  exists ph', st_rs st' = upd_nth r ph' (st_rs st) /\
              snap_of ph' = Some (match snap_of ph with Some s => s | None => cur_snapshot st end) /\
              sound cfg ph'.
Proof.
  intros H. destruct ph as [p|s p|s cr p|s nodes|s o].
  - injection H as <-. repeat split; auto. eexists. repeat split.
  - destruct (step_begun _ _ _ _ _ _ H); repeat split; auto; eexists; repeat split.
  - destruct (step_use _ _ _ _ _ _ _ H) as (c & _ & [c' p' _|nodes|o [->| ->]|Hg]); [destruct cr|..];
      repeat split; auto; eexists; repeat split; assumption.
  - injection H as <-. repeat split; auto. eexists. repeat split. simpl.
    destruct (lookup_all (snd s) nodes) eqn:E; [eapply lookup_all_live; eassumption|exact I].
  - discriminate.
Qed.

Lemma step_phase cfg st t st' r ph' :
  step cfg st t = Some st' -> nth_error (st_rs st') r = Some ph' ->
  nth_error (st_rs st) r = Some ph' \/
  exists ph, t = TReader r /\ nth_error (st_rs st) r = Some ph /\
             snap_of ph' = Some (match snap_of ph with Some s => s | None => cur_snapshot st end) /\
             sound cfg ph'.
Proof.
  intros H Hr. destruct (step_inv _ _ _ _ H) as [_ X]. destruct t as [|r0|].
  - apply step_writer_rs in X. left. rewrite <- (proj1 X). exact Hr.
  - destruct X as (ph & E & X). apply step_reader_frame in X.
    destruct X as (_ & _ & _ & _ & _ & ph1 & Er & Hs & Hd). rewrite Er in Hr. apply nth_upd_some in Hr.
    destruct Hr as [[-> ->]|[_ Hr]]; [right; eauto 6|left; exact Hr].
  - subst st'. left. exact Hr.
Qed.

Lemma step_no_crash cfg st t st' :
  cfg_guarded cfg = true -> step cfg st t = Some st' -> st_crashed st' = false.
Proof.
  intros G H. destruct (step_inv _ _ _ _ H) as [Hc X]. rewrite <- Hc. destruct t as [|r|].
  - apply (step_writer_rs _ _ _ X).
  - destruct X as (ph & _ & X). apply step_reader_frame in X. destruct X as (_ & _ & _ & _ & [X|X] & _); congruence.
  - subst st'. reflexivity.
Qed.

Lemma run_no_crash cfg sched st :
  cfg_guarded cfg = true -> st_crashed st = false -> st_crashed (run cfg sched st) = false.
Proof. intros G. apply (run_invariant cfg (fun st => st_crashed st = false)). intros. eapply step_no_crash; eauto. Qed.

Lemma step_committed cfg st t st' :
  step cfg st t = Some st' -> committed st' = committed st \/ exists p, committed st' = committed st ++ [p].
Proof.
  intros H. destruct (step_inv _ _ _ _ H) as [_ X]. unfold committed. destruct t as [|r|].
  - destruct (step_writer_inv _ _ _ X); simpl; auto. right. eexists. reflexivity.
  - destruct X as (ph & _ & X). apply step_reader_frame in X. destruct X as (-> & -> & _). auto.
  - subst st'. auto.
Qed.

Lemma step_committed_nth cfg st t st' i ps :
  step cfg st t = Some st' -> nth_error (committed st) i = Some ps -> nth_error (committed st') i = Some ps.
Proof.
  intros H Hn. destruct (step_committed _ _ _ _ H) as [->|[p ->]]; [exact Hn|].
  rewrite nth_error_app1; [exact Hn|eapply nth_error_lt; exact Hn].
Qed.

Lemma run_committed_nth cfg sched st i ps :
  nth_error (committed st) i = Some ps -> nth_error (committed (run cfg sched st)) i = Some ps.
Proof.
  apply (run_invariant cfg (fun st => nth_error (committed st) i = Some ps)). intros. eapply step_committed_nth; eauto.
Qed.

Lemma cur_snapshot_nth st : nth_error (committed st) (fst (cur_snapshot st)) = Some (snd (cur_snapshot st)).
Proof. unfold committed, cur_snapshot. simpl. apply nth_app_last. Qed.

Definition inv_snap (cfg : config) (st : state) : Prop :=
  forall r ph, nth_error (st_rs st) r = Some ph ->
    (forall s, snap_of ph = Some s -> nth_error (committed st) (fst s) = Some (snd s)) /\ sound cfg ph.

Lemma step_inv_snap cfg st t st' : step cfg st t = Some st' -> inv_snap cfg st -> inv_snap cfg st'.
Proof.
  intros H I r ph' Hr. destruct (step_phase _ _ _ _ _ _ H Hr) as [E|(ph & _ & E & Hs & Hd)].
  - destruct (I r ph' E) as [I1 I2]. split; [|exact I2]. intros s Es. eapply step_committed_nth; eauto.
  - split; [|exact Hd]. intros s Es. rewrite Hs in Es. injection Es as <-. eapply step_committed_nth; eauto.
    destruct (snap_of ph) as [s0|] eqn:E0; [apply (I r ph E); exact E0|apply cur_snapshot_nth].
Qed.

Lemma run_inv_snap cfg sched st : inv_snap cfg st -> inv_snap cfg (run cfg sched st).
Proof. exact (run_invariant cfg (inv_snap cfg) (step_inv_snap cfg) sched st). Qed.

Lemma init_inv_snap cfg p0 bs progs : inv_snap cfg (init p0 bs progs).
Proof. intros r ph H. destruct (init_idle _ _ _ _ _ H) as (p & _ & ->). split; [discriminate|exact I]. Qed.

Lemma begin_moment cfg st0 sched r ph s :
  (forall ph0, nth_error (st_rs st0) r = Some ph0 -> snap_of ph0 = None) ->
  nth_error (st_rs (run cfg sched st0)) r = Some ph -> snap_of ph = Some s ->
  exists pre post p, sched = pre ++ TReader r :: post /\
                     nth_error (st_rs (run cfg pre st0)) r = Some (RIdle p) /\
                     cur_snapshot (run cfg pre st0) = s.
Proof.
  intros H0. revert ph. induction sched as [|t sched IH] using rev_ind; intros ph Hr Hs.
  - simpl in Hr. rewrite (H0 _ Hr) in Hs. discriminate.
  - rewrite run_app in Hr. simpl in Hr. unfold exec in Hr.
    assert (X : (exists ph1, nth_error (st_rs (run cfg sched st0)) r = Some ph1 /\ snap_of ph1 = Some s) \/
                (exists p, t = TReader r /\ nth_error (st_rs (run cfg sched st0)) r = Some (RIdle p) /\
                           cur_snapshot (run cfg sched st0) = s)).
    { destruct (step cfg (run cfg sched st0) t) as [st'|] eqn:Es; [|eauto].
      destruct (step_phase _ _ _ _ _ _ Es Hr) as [E|(ph1 & -> & E & Hs' & _)]; [eauto|].
      rewrite Hs' in Hs. injection Hs as <-. destruct ph1; simpl; eauto. }
    destruct X as [(ph1 & E & E1)|(p & -> & E & E1)].
    + destruct (IH ph1 E E1) as (pre & post & p & -> & Hp). exists pre, (post ++ [t]), p. rewrite <- app_assoc. auto.
    + exists sched, [], p. auto.
Qed.

(* the committed versions followed by those still to come: no step changes it *)
Definition timeline (cfg : config) (st : state) : list pstore :=
  st_hist st ++ match st_wph st with
                | WInTx _ nx => st_cur st :: seq_versions cfg (st_todo st) (match nx with Some p' => p' | None => st_cur st end)
                | _ => seq_versions cfg (st_todo st) (st_cur st)
                end.

Lemma step_timeline cfg st t st' : step cfg st t = Some st' -> timeline cfg st' = timeline cfg st.
Proof.
  intros H. destruct (step_inv _ _ _ _ H) as [_ X]. unfold timeline. destruct t as [|r|].
  - destruct (step_writer_inv _ _ _ X) as [b rest cid c h' nx Ew Et Ea _ _ _|cid nx Ew|cid ok Ew]; simpl; rewrite Ew.
    + rewrite Et. simpl. unfold next_of. rewrite Ea. reflexivity.
    + rewrite <- app_assoc. reflexivity.
    + reflexivity.
  - destruct X as (ph & _ & X). apply step_reader_frame in X. destruct X as (-> & -> & -> & -> & _). reflexivity.
  - subst st'. reflexivity.
Qed.

Lemma run_timeline cfg p0 bs progs sched : timeline cfg (run cfg sched (init p0 bs progs)) = seq_versions cfg bs p0.
Proof.
  apply (run_invariant cfg (fun st => timeline cfg st = seq_versions cfg bs p0)); [|reflexivity].
  intros st t st' H <-. eapply step_timeline; eauto.
Qed.

Lemma timeline_committed cfg st : exists rest, timeline cfg st = committed st ++ rest.
Proof.
  assert (X : forall todo p, exists tl, seq_versions cfg todo p = p :: tl) by (intros [|b t] p; simpl; eauto).
  unfold timeline, committed. destruct (X (st_todo st) (st_cur st)) as [tl E].
  destruct (st_wph st); rewrite ?E; eexists; rewrite <- app_assoc; reflexivity.
Qed.

Lemma committed_in_timeline cfg p0 bs progs sched i ps :
  nth_error (committed (run cfg sched (init p0 bs progs))) i = Some ps -> In ps (seq_versions cfg bs p0).
Proof.
  intros H. rewrite <- (run_timeline cfg p0 bs progs sched).
  destruct (timeline_committed cfg (run cfg sched (init p0 bs progs))) as [rest ->].
  apply in_or_app. left. eapply nth_error_In; eauto.
Qed.

Lemma done_snapshot cfg p0 bs progs sched r s o :
  let st := run cfg sched (init p0 bs progs) in
  nth_error (st_rs st) r = Some (RDone s o) ->
  nth_error (committed st) (fst s) = Some (snd s) /\ In (snd s) (seq_versions cfg bs p0) /\ sound cfg (RDone s o).
Proof.
  intros st H. destruct (run_inv_snap cfg sched _ (init_inv_snap cfg p0 bs progs) r _ H) as [A B].
  specialize (A s eq_refl). split; [exact A|]. split; [eapply committed_in_timeline; exact A|exact B].
Qed.

Lemma final_versions cfg p0 bs progs sched :
  let st := run cfg sched (init p0 bs progs) in
  writer_finished st -> committed st = seq_versions cfg bs p0.
Proof.
  intros st [Hw Ht]. rewrite <- (run_timeline cfg p0 bs progs sched). fold st.
  unfold timeline. rewrite Hw, Ht. reflexivity.
Qed.

Lemma seq_versions_spec cfg sc maxsize bs p :
  refines_spec cfg sc maxsize ->
  map store_of (seq_versions cfg bs p) = spec_versions sc maxsize bs (store_of p).
Proof.
  intros R. revert p. induction bs as [|b bs IH]; intros p; simpl; auto. f_equal.
  rewrite IH. f_equal. unfold next_of. specialize (R b p). destruct (cfg_apply cfg b p) as [p'|].
  - destruct R as [ids ->]. reflexivity.
  - destruct R as [ks R]. destruct (apply_spec sc maxsize b (store_of p)) as [s' m]. simpl in R. subst. reflexivity.
Qed.

Lemma seq_versions_last cfg bs p : seq_versions cfg bs p <> [].
Proof. destruct bs; discriminate. Qed.

Lemma committed_last st : last (committed st) [] = st_cur st.
Proof. unfold committed. apply last_last. Qed.

Lemma store_of_assign old fresh s : store_of (assign old fresh s) = s.
Proof.
  revert fresh. induction s as [|[id d] s IH]; intros fresh; simpl; auto.
  destruct (node_of id old); simpl; unfold store_of in *; rewrite IH; reflexivity.
Qed.

Lemma spec_apply_refines g idx keys sc maxsize :
  refines_spec (mkConfig g idx (spec_apply sc maxsize) keys) sc maxsize.
Proof.
  intros b p. simpl. unfold spec_apply. destruct (apply_spec sc maxsize b (store_of p)) as [s' [ids|ks]] eqn:E.
  - exists ids. rewrite store_of_assign. reflexivity.
  - exists ks. reflexivity.
Qed.

Lemma idx_get_app a b k :
  idx_get (a ++ b) k = match idx_get a k with Some e => Some e | None => idx_get b k end.
Proof. induction a as [|[k' e] a IH]; simpl; auto. destruct (N.eqb k k'); auto. Qed.

Lemma idx_get_scan view keys k :
  idx_get (scan_result view keys) k = if existsb (N.eqb k) keys then view k else None.
Proof.
  unfold scan_result. induction keys as [|u us IH]; simpl; auto.
  rewrite idx_get_app, IH. destruct (N.eqb k u) eqn:E; simpl.
  - apply N.eqb_eq in E. subst u. destruct (view k) eqn:Ev; simpl.
    + rewrite N.eqb_refl. reflexivity.
    + destruct (existsb (N.eqb k) us); auto.
  - destruct (view u); simpl; auto. rewrite E. reflexivity.
Qed.

Lemma scan_result_ext v1 v2 keys :
  (forall k, In k keys -> v1 k = v2 k) -> scan_result v1 keys = scan_result v2 keys.
Proof.
  unfold scan_result. induction keys as [|u us IH]; simpl; intros H; auto.
  rewrite (H u) by auto. f_equal. apply IH. auto.
Qed.

Lemma idx_get_filter (f : key -> bool) l k :
  idx_get (filter (fun kv => f (fst kv)) l) k = if f k then idx_get l k else None.
Proof.
  induction l as [|[k' e] l IH]; simpl; [destruct (f k); auto|].
  destruct (f k') eqn:Ef; simpl; destruct (N.eqb k k') eqn:E; auto;
    apply N.eqb_eq in E; subst; rewrite ?IH, Ef; reflexivity.
Qed.

Lemma idx_get_some_in i k e : idx_get i k = Some e -> In k (map fst i).
Proof.
  induction i as [|[k' e'] i IH]; simpl; [discriminate|]. destruct (N.eqb k k') eqn:E; auto.
  apply N.eqb_eq in E. auto.
Qed.

Lemma opt_entry_eqb_eq a b : opt_entry_eqb a b = true -> a = b.
Proof.
  destruct a, b; simpl; try discriminate; auto. destruct (list_eq_dec N.eq_dec e e0); [subst; auto|discriminate].
Qed.

Lemma unchanged_eq old new k : changed old new k = false -> idx_get old k = idx_get new k.
Proof. unfold changed. intros H. apply negb_false_iff in H. apply opt_entry_eqb_eq; auto. Qed.

Lemma changed_in_keys old new k : existsb (N.eqb k) (changed_keys old new) = changed old new k.
Proof.
  destruct (changed old new k) eqn:H.
  - apply existsb_Neqb_In, filter_In. split; [|exact H]. apply in_or_app. unfold changed in H.
    destruct (idx_get old k) eqn:E1; [left; eapply idx_get_some_in; eauto|].
    destruct (idx_get new k) eqn:E2; [right; eapply idx_get_some_in; eauto|discriminate].
  - destruct (existsb (N.eqb k) (changed_keys old new)) eqn:E; [|reflexivity].
    apply existsb_Neqb_In, filter_In in E. destruct E; congruence.
Qed.

Lemma get_w_update old new c k :
  idx_get (c_items (w_update old new c)) k = if changed old new k then idx_get new k else idx_get (c_items c) k.
Proof.
  unfold w_update. simpl. rewrite idx_get_app, idx_get_scan, changed_in_keys.
  rewrite (idx_get_filter (fun k => negb (changed old new k))).
  destruct (changed old new k); [destruct (idx_get new k)|]; reflexivity.
Qed.

Lemma coherent_empty cfg ps h : coherent cfg ps (empty_cache h).
Proof. split; simpl; intros; discriminate. Qed.

Lemma coherent_handle cfg ps c h : coherent cfg ps c -> coherent cfg ps (mkCache (c_items c) (c_all c) h).
Proof. intros H. exact H. Qed.

Lemma coherent_w_update cfg ps ps' c :
  coherent cfg ps c -> coherent cfg ps' (w_update (cfg_index cfg ps) (cfg_index cfg ps') c).
Proof.
  intros [H1 H2]. split.
  - intros k e. rewrite get_w_update. destruct (changed _ _ k) eqn:E; auto.
    rewrite <- (unchanged_eq _ _ _ E). auto.
  - intros Ha k Hk. rewrite get_w_update. destruct (changed _ _ k) eqn:E; auto.
    rewrite <- (unchanged_eq _ _ _ E). apply H2; auto.
Qed.

Lemma coherent_w_upd cfg ps nx c :
  coherent cfg ps c -> coherent cfg (match nx with Some p' => p' | None => ps end) (w_upd cfg ps nx c).
Proof. intros H. destruct nx; [apply coherent_w_update|]; exact H. Qed.

Lemma coherent_cache_get cfg ps c k : coherent cfg ps c -> cache_get cfg ps c k = idx_get (cfg_index cfg ps) k.
Proof. intros [H1 _]. unfold cache_get. destruct (idx_get (c_items c) k) eqn:E; auto. symmetry. auto. Qed.

Lemma coherent_cache_scan cfg ps c :
  coherent cfg ps c -> cache_scan cfg ps c = scan_result (idx_get (cfg_index cfg ps)) (cfg_keys cfg).
Proof.
  intros H. unfold cache_scan. destruct (c_all c) eqn:Ea; apply scan_result_ext; intros k Hk.
  - apply H; auto.
  - apply coherent_cache_get; auto.
Qed.

Lemma refill_coherent cfg ps oih c c' :
  coherent cfg ps c -> (forall ih, oih = Some ih -> ih = cfg_index cfg ps) -> refill cfg oih c c' -> coherent cfg ps c'.
Proof.
  intros H Hi [|ih k e E Hk|ih E]; [exact H|rewrite (Hi _ E) in Hk|rewrite (Hi _ E)];
    pose proof H as [H1 H2]; split; simpl.
  - intros k' e'. destruct (N.eqb k' k) eqn:Ek; auto. apply N.eqb_eq in Ek. subst. congruence.
  - intros Ha k' Hk'. destruct (N.eqb k' k) eqn:Ek; auto. apply N.eqb_eq in Ek. subst. auto.
  - (* what the scan adds under k is cache_get, which is the index *)
    intros k e. rewrite idx_get_app, idx_get_scan. change (scan_view c (cfg_index cfg ps) k) with (cache_get cfg ps c k).
    rewrite (coherent_cache_get _ _ _ _ H). destruct (existsb (N.eqb k) (cfg_keys cfg)); auto.
    destruct (idx_get (cfg_index cfg ps) k) eqn:E1; auto. intros E2. apply H1 in E2. congruence.
  - intros _ k Hk. rewrite idx_get_app, idx_get_scan. change (scan_view c (cfg_index cfg ps) k) with (cache_get cfg ps c k).
    rewrite (coherent_cache_get _ _ _ _ H), (proj2 (existsb_Neqb_In _ _) Hk).
    destruct (idx_get (cfg_index cfg ps) k) eqn:E1; auto.
    destruct (idx_get (c_items c) k) eqn:E2; auto. apply H1 in E2. congruence.
Qed.

Lemma refill_handle cfg oih c c' : refill cfg oih c c' -> c_handle c' = c_handle c.
Proof. intros []; reflexivity. Qed.

(* the version a registered cache stands for: the one about to be committed while the writer holds it *)
Definition version (st : state) (cid : nat) : pstore :=
  match st_wph st with
  | WInTx c (Some p') => if Nat.eqb c cid then p' else st_cur st
  | _ => st_cur st
  end.

Definition coherent_at (cfg : config) (h : list cache) (ps : pstore) (cid : nat) : Prop :=
  exists c, nth_error h cid = Some c /\ coherent cfg ps c.

Definition cref_ok (cfg : config) (st : state) (cr : cref) : Prop :=
  match cr with
  | Shared cid => wheld st cid = false /\ coherent_at cfg (st_heap st) (st_cur st) cid
  | Private c => coherent cfg (st_cur st) c
  end.

(* GI, the global invariant of calm schedules: every reader in flight holds the current snapshot, the cache it
   uses is coherent with the current version, only the registered cache is ever write-locked, and the registered
   cache is coherent with the version it stands for *)
Definition GI (cfg : config) (st : state) : Prop :=
  (forall r ph, nth_error (st_rs st) r = Some ph -> forall s, in_flight ph = Some s -> s = cur_snapshot st) /\
  (forall r s cr p, nth_error (st_rs st) r = Some (RUse s cr p) -> cref_ok cfg st cr) /\
  (forall cid, wheld st cid = true -> st_mgr st = Some cid) /\
  (forall cid, st_mgr st = Some cid -> coherent_at cfg (st_heap st) (version st cid) cid).

Lemma stored_coherent_at cfg h cid c' h' ps i :
  stored h cid c' h' -> (i = cid -> coherent cfg ps c') -> coherent_at cfg h ps i -> coherent_at cfg h' ps i.
Proof.
  intros [S1 S2] Hc (c & E & H). destruct (Nat.eq_dec i cid) as [->|Hne].
  - exists c'. auto.
  - exists c. rewrite (S2 _ Hne). auto.
Qed.

Lemma cref_ok_get cfg st cr c : cref_ok cfg st cr -> get_cache st cr = Some c -> coherent cfg (st_cur st) c.
Proof.
  destruct cr as [cid|pc]; simpl.
  - intros [_ (c1 & E & H)] Eg. congruence.
  - intros H Eg. injection Eg as <-. exact H.
Qed.

Lemma wheld_active st cid : wheld st cid = true -> w_active st = true.
Proof. unfold wheld, w_active. destruct (st_wph st); auto. Qed.

Lemma version_unlocked st cid : wheld st cid = false -> version st cid = st_cur st.
Proof. unfold wheld, version. destruct (st_wph st) as [|c [p'|]|]; auto. intros ->. reflexivity. Qed.

Lemma gi_set_reader cfg st r ph' :
  GI cfg st ->
  match in_flight ph' with Some s => s = cur_snapshot st | None => True end ->
  match ph' with RUse _ cr _ => cref_ok cfg st cr | _ => True end ->
  GI cfg (set_reader st r ph').
Proof.
  intros (A & B & C & D) H1 H2. split; [|split; [|split; [exact C|exact D]]].
  - intros r' ph Hn s Hf. apply nth_upd_some in Hn. destruct Hn as [[_ ->]|[_ Hn]]; [|eauto].
    rewrite Hf in H1. exact H1.
  - intros r' s cr p Hn. apply nth_upd_some in Hn. destruct Hn as [[_ <-]|[_ Hn]]; [exact H2|eauto].
Qed.

Lemma gi_store cfg st cid c' h' :
  GI cfg st -> stored (st_heap st) cid c' h' -> wheld st cid = false -> coherent cfg (st_cur st) c' ->
  GI cfg (set_heap st h').
Proof.
  intros (A & B & C & D) Hs Hw Hco. split; [exact A|]. split; [|split; [exact C|]].
  - intros r s cr p Hn. specialize (B r s cr p Hn). destruct cr as [i|pc]; [|exact B].
    split; [apply B|]. eapply stored_coherent_at; [exact Hs|auto|apply B].
  - intros i Hm. change (coherent_at cfg h' (version st i) i). eapply stored_coherent_at; [exact Hs| |apply D; exact Hm].
    intros ->. rewrite (version_unlocked _ _ Hw). exact Hco.
Qed.

Lemma gi_set_mgr cfg st m :
  GI cfg st -> (w_active st = false \/ m = st_mgr st) ->
  (forall cid, m = Some cid -> coherent_at cfg (st_heap st) (version st cid) cid) ->
  GI cfg (set_mgr st m).
Proof.
  intros (A & B & C & D) Hm Hc. split; [exact A|]. split; [exact B|]. split; [|exact Hc].
  intros cid Hw. destruct Hm as [Hm| ->]; [|apply C; exact Hw].
  apply (wheld_active st) in Hw. congruence.
Qed.

Lemma gi_put_cache cfg st r s cr p c' p' :
  GI cfg st -> nth_error (st_rs st) r = Some (RUse s cr p) -> coherent cfg (st_cur st) c' ->
  GI cfg (put_cache st r s cr c' p').
Proof.
  intros G Hn Hco. pose proof G as (A & B & _). specialize (B _ _ _ _ Hn).
  pose proof (A _ _ Hn _ eq_refl) as Hs. destruct cr as [cid|pc]; simpl.
  - destruct B as [Hw (c & Eg & _)]. pose proof (stored_upd _ _ _ c' Eg) as Hst.
    apply gi_set_reader; [eapply gi_store; eauto|exact Hs|]. split; [exact Hw|]. exists c'. split; [apply Hst|exact Hco].
  - apply gi_set_reader; [exact G|exact Hs|exact Hco].
Qed.

Lemma acquired_coherent cfg st cid c :
  GI cfg st -> acquired st cid c -> wheld st cid = false -> coherent cfg (st_cur st) c.
Proof.
  intros (_ & _ & _ & D) [cid' c' Em Eh|h Em] Hw; [|apply coherent_empty].
  destruct (D _ Em) as (c1 & E1 & H1). rewrite (version_unlocked _ _ Hw) in H1. congruence.
Qed.

Lemma all_inactive_nth skip i rs r ph :
  all_inactive_except skip i rs = true -> nth_error rs r = Some ph -> skip <> Some (i + r) -> r_active ph = false.
Proof.
  revert i r. induction rs as [|ph0 rs IH]; intros i r H Hn Hs; [destruct r; discriminate|].
  simpl in H. apply andb_true_iff in H. destruct H as [H1 H2]. destruct r as [|r]; simpl in Hn.
  - injection Hn as ->. apply orb_true_iff in H1. destruct H1 as [H1|H1]; [|apply negb_true_iff; exact H1].
    destruct skip as [r0|]; [|discriminate]. apply Nat.eqb_eq in H1. subst. exfalso. apply Hs. rewrite Nat.add_0_r. reflexivity.
  - eapply (IH (S i) r); eauto. intros E. apply Hs. rewrite E. f_equal. apply Nat.add_succ_comm.
Qed.

Lemma rlocked_false st cid r s cid' p :
  rlocked st cid = false -> nth_error (st_rs st) r = Some (RUse s (Shared cid') p) -> cid' <> cid.
Proof.
  unfold rlocked. intros H Hn E. subst. apply nth_error_In in Hn. apply Bool.not_true_iff_false in H. apply H.
  apply existsb_exists. eexists; split; [exact Hn|]. apply Nat.eqb_refl.
Qed.

Lemma handle_live cfg st h ih :
  handle_index cfg st h = Some ih ->
  exists r ph s, nth_error (st_rs st) r = Some ph /\ in_flight ph = Some s /\ ih = cfg_index cfg (snd s).
Proof.
  destruct h as [r|]; simpl; [|discriminate]. destruct (nth_error (st_rs st) r) as [ph|] eqn:E; [|discriminate].
  destruct (in_flight ph) as [s|] eqn:Ef; [|discriminate]. intros H. injection H as <-. eauto 6.
Qed.

Lemma step_GI_writer cfg st st' :
  step_writer cfg st = Some st' -> calm cfg st TWriter = true -> GI cfg st -> GI cfg st'.
Proof.
  intros H Hc G. pose proof G as (A & B & C & D).
  destruct (step_writer_inv _ _ _ H) as [b rest cid c h' nx Ew _ _ Ha Hl Hst|cw nx Ew|cw ok Ew].
  - (* lock and update: the cache was coherent with the current version, now with the next *)
    assert (Hw : forall i, wheld st i = false) by (intros i; unfold wheld; rewrite Ew; reflexivity).
    split; [exact A|]. split; [|split].
    + intros r s cr p Hn. specialize (B _ _ _ _ Hn). destruct cr as [i|pc]; [|exact B]. destruct B as [_ B].
      assert (i <> cid).
      { destruct Ha as [cid c Em Eh|h Em]; [eapply rlocked_false; eauto|].
        destruct B as (c1 & E1 & _). apply nth_error_lt in E1. intros ->. exact (Nat.lt_irrefl _ E1). }
      split; [apply Nat.eqb_neq; auto|]. eapply stored_coherent_at; [exact Hst|tauto|exact B].
    + intros i Hi. apply Nat.eqb_eq in Hi. simpl. congruence.
    + intros i Hm. injection Hm as <-. eexists. split; [apply Hst|].
      unfold version. simpl. rewrite Nat.eqb_refl. apply coherent_w_upd. eapply acquired_coherent; eauto.
  - (* storage commit: no transaction is open, the locked cache already holds the new version *)
    unfold calm in Hc. rewrite Ew in Hc.
    assert (Hnone : forall r ph, nth_error (st_rs st) r = Some ph -> r_active ph = false).
    { intros r ph Hn. apply (all_inactive_nth None 0 _ _ _ Hc Hn). discriminate. }
    assert (Hcw : wheld st cw = true) by (unfold wheld; rewrite Ew; apply Nat.eqb_refl).
    split; [|split; [|split]].
    + intros r ph Hn s Hf. specialize (Hnone _ _ Hn). unfold r_active in Hnone. rewrite Hf in Hnone. discriminate.
    + intros r s cr p Hn. discriminate (Hnone _ _ Hn).
    + intros i Hi. apply C. unfold wheld. rewrite Ew. exact Hi.
    + intros i Hm. simpl in Hm. assert (i = cw) by (rewrite (C _ Hcw) in Hm; congruence). subst i.
      specialize (D _ Hm). unfold version in D. rewrite Ew, Nat.eqb_refl in D. destruct nx; exact D.
  - split; [exact A|]. split; [|split].
    + intros r s cr p Hn. specialize (B _ _ _ _ Hn). destruct cr as [i|pc]; [|exact B]. split; [reflexivity|apply B].
    + intros i Hi. discriminate.
    + intros i Hm. simpl in Hm. destruct ok; [|discriminate]. specialize (D _ Hm).
      unfold version in D. rewrite Ew in D. exact D.
Qed.

Lemma step_GI_reader cfg st r ph st' :
  nth_error (st_rs st) r = Some ph -> step_reader cfg st r ph = Some st' ->
  (w_active st = false \/ st_mgr st' = st_mgr st) -> GI cfg st -> GI cfg st'.
Proof.
  intros Hn H Hm G. pose proof G as (A & B & C & D). pose proof (A _ _ Hn) as Hs.
  destruct ph as [p|s p|s cr p|s nodes|s o]; [| | |injection H as <-; apply gi_set_reader; auto; exact I|discriminate].
  - injection H as <-. apply gi_set_reader; [exact G|reflexivity|exact I].
  - specialize (Hs s eq_refl). destruct (step_begun _ _ _ _ _ _ H) as [cid Em Ew|cid c h' Ha Hw Hst].
    + apply gi_set_reader; [exact G|exact Hs|apply coherent_empty].
    + (* a cache registered while the writer holds another one would break calm *)
      assert (Hw' : wheld st cid = false).
      { destruct Ha as [cid c Em Eh|h Em]; [auto|]. destruct Hm as [Hm|Hm]; [|simpl in Hm; congruence].
        destruct (wheld st _) eqn:E; [apply wheld_active in E; congruence|reflexivity]. }
      pose proof (coherent_handle _ _ _ (HReader r) (acquired_coherent _ _ _ _ G Ha Hw')) as Hco.
      assert (Hat : coherent_at cfg h' (st_cur st) cid) by (eexists; split; [apply Hst|exact Hco]).
      apply gi_set_reader; [|exact Hs|split; [exact Hw'|exact Hat]].
      apply gi_set_mgr; [eapply gi_store; eauto|exact Hm|].
      intros i E. injection E as <-. change (coherent_at cfg h' (version st cid) cid).
      rewrite (version_unlocked _ _ Hw'). exact Hat.
  - specialize (Hs s eq_refl). destruct (step_use _ _ _ _ _ _ _ H) as (c & Eg & U). destruct U as [c' p' Hr|nodes|o _|_].
    + eapply gi_put_cache; eauto. eapply refill_coherent; [eapply cref_ok_get; eauto| |exact Hr].
      intros ih Hi. destruct (handle_live _ _ _ _ Hi) as (r' & ph' & s' & E1 & E2 & ->).
      rewrite (A _ _ E1 _ E2). reflexivity.
    + apply gi_set_reader; [exact G|exact Hs|exact I].
    + apply gi_set_reader; [|exact I|exact I]. apply gi_set_mgr; [exact G|exact Hm|discriminate].
    + apply (gi_set_reader cfg st r (RDone s Crashed)); [exact G|exact I|exact I].
Qed.

Lemma opt_nat_eqb_eq a b : opt_nat_eqb a b = true -> a = b.
Proof. destruct a, b; simpl; try discriminate; auto. intros H. apply Nat.eqb_eq in H. congruence. Qed.

Lemma step_GI cfg st t st' : step cfg st t = Some st' -> calm cfg st t = true -> GI cfg st -> GI cfg st'.
Proof.
  intros H Hc G.
  assert (Hm : t <> TWriter -> w_active st = false \/ st_mgr st' = st_mgr st).
  { intros Ht. assert (X : (negb (w_active st) || opt_nat_eqb (st_mgr (exec cfg st t)) (st_mgr st)) = true)
      by (destruct t; [congruence|exact Hc|exact Hc]).
    unfold exec in X. rewrite H in X. apply orb_true_iff in X.
    destruct X as [X|X]; [left; apply negb_true_iff|right; apply opt_nat_eqb_eq]; exact X. }
  destruct (step_inv _ _ _ _ H) as [_ X]. destruct t as [|r|].
  - exact (step_GI_writer _ _ _ X Hc G).
  - destruct X as (ph & E & X). apply (step_GI_reader _ _ _ _ _ E X); [apply Hm; discriminate|exact G].
  - subst st'. apply gi_set_mgr; [exact G|apply Hm|]; discriminate.
Qed.

Lemma init_GI cfg p0 bs progs : GI cfg (init p0 bs progs).
Proof.
  split; [|split; [|split]]; try discriminate.
  - intros r ph H. destruct (init_idle _ _ _ _ _ H) as (p & _ & ->). discriminate.
  - intros r s cr p H. destruct (init_idle _ _ _ _ _ H) as (p' & _ & E). discriminate.
Qed.

Lemma run_GI cfg sched st : calm_run cfg sched st -> GI cfg st -> GI cfg (run cfg sched st).
Proof.
  revert st. induction sched as [|t s IH]; intros st Hc G; simpl; auto. destruct Hc as [Hc1 Hc2].
  apply IH; [exact Hc2|]. unfold exec. destruct (step cfg st t) eqn:E; [|exact G]. exact (step_GI _ _ _ _ E Hc1 G).
Qed.

Lemma others_idle_calm cfg st t : others_idle st t = true -> calm cfg st t = true.
Proof.
  unfold others_idle, calm. destruct t; intros H; [destruct (st_wph st); auto| |];
    apply andb_true_iff in H; destruct H as [-> _]; reflexivity.
Qed.

Lemma serial_calm cfg sched st : serial_run cfg sched st -> calm_run cfg sched st.
Proof.
  revert st. induction sched as [|t s IH]; intros st H; simpl; auto. destruct H as [H1 H2].
  split; auto. apply others_idle_calm; auto.
Qed.

Lemma registered_coherent cfg st cid :
  GI cfg st -> st_wph st = WIdle -> st_mgr st = Some cid -> coherent_at cfg (st_heap st) (st_cur st) cid.
Proof. intros (_ & _ & _ & D) Hw Hm. specialize (D _ Hm). unfold version in D. rewrite Hw in D. exact D. Qed.

Definition is_read (p : prog) : bool := match p with PGet _ _ | PScan _ => true | _ => false end.

Definition next_ref (keys : list key) (i : index) (p : prog) : prog :=
  match p with
  | PGet k cont => cont (idx_get i k)
  | PScan cont => cont (scan_result (idx_get i) keys)
  | _ => p
  end.

Lemma exec_ref_next keys i p : exec_ref keys i (next_ref keys i p) = exec_ref keys i p.
Proof. destruct p; reflexivity. Qed.

Lemma answer_next cfg p ps : answer cfg (next_ref (cfg_keys cfg) (cfg_index cfg ps) p) ps = answer cfg p ps.
Proof. unfold answer. rewrite exec_ref_next. reflexivity. Qed.

(* induction along the reference run of a program on index i *)
Lemma prog_run_ind keys i (P : prog -> Prop) :
  (forall nodes, P (PDone nodes)) -> P PFail -> (forall p, is_read p = true -> P (next_ref keys i p) -> P p) ->
  forall p, P p.
Proof. intros Hd Hf Hr p. induction p as [nodes| |k cont IH|cont IH]; auto; apply Hr; simpl; auto. Qed.

(* through its own bucket handle and a cache coherent with its snapshot, a reader reads the index of the snapshot *)
Lemma own_read cfg st r s cr c p :
  nth_error (st_rs st) r = Some (RUse s cr p) -> get_cache st cr = Some c ->
  c_handle c = HReader r -> coherent cfg (snd s) c -> is_read p = true ->
  exists c', step_reader cfg st r (RUse s cr p) =
               Some (put_cache st r s cr c' (next_ref (cfg_keys cfg) (cfg_index cfg (snd s)) p)) /\
             c_handle c' = HReader r /\ coherent cfg (snd s) c'.
Proof.
  intros Hn Hg Hh Hco Hp.
  assert (Hi : handle_index cfg st (c_handle c) = Some (cfg_index cfg (snd s))).
  { rewrite Hh. unfold handle_index. rewrite Hn. reflexivity. }
  assert (Hr : forall c', refill cfg (Some (cfg_index cfg (snd s))) c c' -> c_handle c' = HReader r /\ coherent cfg (snd s) c').
  { intros c' X. split; [rewrite (refill_handle _ _ _ _ X); exact Hh|]. eapply refill_coherent; eauto. congruence. }
  destruct p as [nodes| |k cont|cont]; try discriminate Hp; simpl; rewrite Hg.
  - destruct (idx_get (c_items c) k) as [e|] eqn:Ei.
    + exists c. rewrite (proj1 Hco _ _ Ei). auto using rf_same.
    + rewrite Hi. destruct (idx_get (cfg_index cfg (snd s)) k) as [e|] eqn:Ek; eexists; (split; [reflexivity|]);
        apply Hr; [eapply rf_get; eauto|apply rf_same].
  - destruct (c_all c) eqn:Ea.
    + exists c. split; [|auto using rf_same]. do 3 f_equal. apply scan_result_ext. intros k Hk. apply Hco; auto.
    + rewrite Hi. eexists. split; [|apply Hr; eapply rf_scan; reflexivity]. do 3 f_equal.
      apply scan_result_ext. intros k _. apply (coherent_cache_get cfg (snd s) c k Hco).
Qed.

Definition own_ok (cfg : config) (st : state) (r : nat) (p0 : prog) (ph : rphase) : Prop :=
  match ph with
  | RIdle p | RBegun _ p => p = p0
  | RUse s cr p =>
      exec_ref (cfg_keys cfg) (cfg_index cfg (snd s)) p = exec_ref (cfg_keys cfg) (cfg_index cfg (snd s)) p0 /\
      exists c, get_cache st cr = Some c /\ c_handle c = HReader r
  | RLookup s nodes => exec_ref (cfg_keys cfg) (cfg_index cfg (snd s)) p0 = RefNodes nodes
  | RDone s o => o = answer cfg p0 (snd s)
  end.
(* SI, the invariant of serial schedules: no crash, and every reader is where the reference run of its own
   program p0 on its snapshot puts it (own_ok) *)
Definition SI (cfg : config) (progs : list prog) (st : state) : Prop :=
  st_crashed st = false /\
  forall r ph, nth_error (st_rs st) r = Some ph -> exists p0, nth_error progs r = Some p0 /\ own_ok cfg st r p0 ph.

Lemma own_ok_inactive cfg st st' r p0 ph : r_active ph = false -> own_ok cfg st r p0 ph -> own_ok cfg st' r p0 ph.
Proof. destruct ph; simpl; auto; discriminate. Qed.

Lemma put_cache_own st r s cr c c' p' :
  get_cache st cr = Some c ->
  exists cr', st_rs (put_cache st r s cr c' p') = upd_nth r (RUse s cr' p') (st_rs st) /\
              get_cache (put_cache st r s cr c' p') cr' = Some c' /\
              st_crashed (put_cache st r s cr c' p') = st_crashed st.
Proof.
  intros H. destruct cr as [cid|pc]; simpl in *.
  - exists (Shared cid). simpl. repeat split. apply nth_upd_eq. eapply nth_error_lt; eauto.
  - exists (Private c'). auto.
Qed.

Lemma step_reader_own cfg st r ph st' p0 :
  nth_error (st_rs st) r = Some ph -> step_reader cfg st r ph = Some st' -> GI cfg st ->
  own_ok cfg st r p0 ph -> st_crashed st = false ->
  exists ph', st_rs st' = upd_nth r ph' (st_rs st) /\ own_ok cfg st' r p0 ph' /\ st_crashed st' = false.
Proof.
  intros Hn H G Ho Hcr. destruct ph as [p|s p|s cr p|s nodes|s o]; simpl in Ho.
  - injection H as <-. eexists. split; [reflexivity|]. auto.
  - subst p. destruct (step_begun _ _ _ _ _ _ H) as [cid Em Ew|cid c h' Ha Hw Hst];
      eexists; (split; [reflexivity|]); (split; [|exact Hcr]); (split; [reflexivity|]); eexists.
    + split; reflexivity.
    + split; [apply Hst|reflexivity].
  - destruct Ho as (Hex & c & Eg & Hh). destruct G as (A & B & _).
    assert (Hco : coherent cfg (snd s) c).
    { rewrite (A _ _ Hn _ eq_refl). eapply cref_ok_get; eauto. }
    destruct (is_read p) eqn:Hp.
    + destruct (own_read cfg st r s cr c p Hn Eg Hh Hco Hp) as (c' & E & Hh' & _). rewrite E in H. injection H as <-.
      destruct (put_cache_own st r s cr c c' (next_ref (cfg_keys cfg) (cfg_index cfg (snd s)) p) Eg) as (cr' & E1 & E2 & E3).
      eexists. split; [exact E1|]. split; [|congruence]. split; [rewrite exec_ref_next; exact Hex|eauto].
    + destruct p as [nodes| |k cont|cont]; try discriminate Hp; simpl in H; rewrite Eg in H; injection H as <-;
        eexists; (split; [reflexivity|]); (split; [|exact Hcr]); simpl; auto.
      unfold answer. rewrite <- Hex. reflexivity.
  - injection H as <-. eexists. split; [reflexivity|]. split; [|exact Hcr]. simpl. unfold answer. rewrite Ho. reflexivity.
  - discriminate.
Qed.

Lemma others_idle_all st t r ph :
  t <> TReader r -> others_idle st t = true -> nth_error (st_rs st) r = Some ph -> r_active ph = false.
Proof.
  intros Ht H Hn. destruct t as [|r0|]; [|apply andb_true_iff in H; destruct H as [_ H]..];
    eapply (all_inactive_nth _ 0); eauto; simpl; congruence.
Qed.

Lemma step_SI cfg progs st t st' :
  step cfg st t = Some st' -> others_idle st t = true -> GI cfg st -> SI cfg progs st -> SI cfg progs st'.
Proof.
  intros H Hi G (Scr & S). destruct (step_inv _ _ _ _ H) as [_ X].
  (* the other readers are outside their transactions: what they need from the state is nothing *)
  assert (Hkeep : forall r ph, nth_error (st_rs st) r = Some ph -> t <> TReader r ->
                               exists p0, nth_error progs r = Some p0 /\ own_ok cfg st' r p0 ph).
  { intros r ph Hn Ht. destruct (S r ph Hn) as (p0 & Hp & Ho). exists p0. split; [exact Hp|].
    eapply own_ok_inactive; [eapply others_idle_all|]; eauto. }
  destruct t as [|r|].
  - destruct (step_writer_rs _ _ _ X) as [E1 E2]. split; [congruence|]. intros r ph Hn. rewrite E1 in Hn.
    apply Hkeep; [exact Hn|discriminate].
  - destruct X as (ph & E & X). destruct (S r ph E) as (p0 & Ep & Ho).
    destruct (step_reader_own cfg st r ph st' p0 E X G Ho Scr) as (ph' & E1 & E2 & E3). split; [exact E3|].
    intros r' ph2 Hn. rewrite E1 in Hn. apply nth_upd_some in Hn. destruct Hn as [[<- ->]|[Hne Hn]]; [eauto|].
    apply Hkeep; [exact Hn|congruence].
  - subst st'. split; [exact Scr|]. intros r ph Hn. apply Hkeep; [exact Hn|discriminate].
Qed.

Lemma init_SI cfg p0 bs progs : SI cfg progs (init p0 bs progs).
Proof.
  split; [reflexivity|]. intros r ph Hn. destruct (init_idle _ _ _ _ _ Hn) as (p & Hp & ->). exists p. split; auto. reflexivity.
Qed.

Lemma run_SI cfg progs sched st :
  serial_run cfg sched st -> GI cfg st -> SI cfg progs st ->
  GI cfg (run cfg sched st) /\ SI cfg progs (run cfg sched st).
Proof.
  revert st. induction sched as [|t s IH]; intros st Hs G S; simpl; auto. destruct Hs as [H1 H2].
  unfold exec in *. destruct (step cfg st t) as [st'|] eqn:E; auto.
  pose proof (step_GI _ _ _ _ E (others_idle_calm cfg _ _ H1) G) as G'.
  apply IH; [exact H2|exact G'|exact (step_SI _ _ _ _ _ E H1 G S)].
Qed.

Lemma serial_safe cfg p0 bs progs sched :
  serial_run cfg sched (init p0 bs progs) ->
  let st := run cfg sched (init p0 bs progs) in
  st_crashed st = false /\
  forall r s o p, nth_error (st_rs st) r = Some (RDone s o) -> nth_error progs r = Some p -> o = answer cfg p (snd s).
Proof.
  intros Hs st.
  destruct (run_SI cfg progs sched _ Hs (init_GI cfg p0 bs progs) (init_SI cfg p0 bs progs)) as [_ (S1 & S2)].
  split; [exact S1|]. intros r s o p Hn Hp. destruct (S2 _ _ Hn) as (p' & Hp' & Ho). congruence.
Qed.

Open Scope N_scope.
Definition w_id1 : uuid := [1]. Definition w_id2 : uuid := [2].
Definition w_doc : doc := [([120], VInt 1%Z)].
Definition w_p0 : pstore := [(1, (w_id1, w_doc))].
Definition w_batch : batch := BInsert [(w_id2, w_doc)].
(* a filter-like query: read the posting list under key 0 and return it *)
Definition w_q_get : prog := PGet 0 (fun r => PDone (match r with Some l => l | None => [] end)).
(* a flat-like query: one point read, then a full scan *)
Definition w_q_scan : prog :=
  PGet 0 (fun _ => PScan (fun i => PDone (match idx_get i 0 with Some l => l | None => [] end))).
Close Scope N_scope.

(* R0 begins (snapshot v0); the writer locks, updates the cache to I_1, commits v1, unlocks;
   R0 acquires the shared cache, reads key 0 from it, releases, looks the nodes up in v0 *)
Definition w_sched_spurious : list tid :=
  [TReader 0; TWriter; TWriter; TWriter; TReader 0; TReader 0; TReader 0; TReader 0].

(* R2 warms the cache and finishes; R0 acquires it, R1 acquires it (its handle is installed last),
   R1 searches and finishes (its handle dies); R0 hits key 0, then scans through the dead handle *)
Definition w_sched_shared : list tid :=
  [TReader 2; TReader 2; TReader 2; TReader 2; TReader 2;
   TReader 0; TReader 0; TReader 1; TReader 1; TReader 1; TReader 1; TReader 1;
   TReader 0; TReader 0; TReader 0; TReader 0].

(* the writer locks a fresh cache; the manager entry is evicted; R0 registers a cache built from v0,
   populates it and finishes; the writer commits v1 and unlocks: the registered cache still holds I_0 *)
Definition w_sched_evict : list tid :=
  [TWriter; TEvict; TReader 0; TReader 0; TReader 0; TReader 0; TReader 0; TWriter; TWriter].
