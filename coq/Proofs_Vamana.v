(* Proofs_Vamana.v -- lemmas about the Vamana mechanism model (Model_Vamana.v):
   association lists, DistSet invariants, greedy search never fails on a closed node set,
   inductive well-formedness under insert / prune / delete / batches. *)
From Coq Require Import List NArith QArith Bool Arith Lia Permutation Sorted Morphisms.
From Semadb Require Import ListFacts Model_Vamana.
Import ListNotations.

Local Arguments add_with_limit {vec} dist ds p : simpl never.
Local Arguments add {vec} dist ds p : simpl never.

Lemma memb_In x l : memb x l = true <-> In x l.
Proof. apply existsb_Neqb_In. Qed.

Lemma memb_spec x l : reflect (In x l) (memb x l).
Proof. apply iff_reflect. symmetry. apply memb_In. Qed.

Lemma memb_false x l : memb x l = false <-> ~ In x l.
Proof. destruct (memb_spec x l); intuition congruence. Qed.

Lemma lookup_filter A (f : N -> bool) y (l : list (N * A)) :
  lookup y (filter (fun p => f (fst p)) l) = if f y then lookup y l else None.
Proof.
  induction l as [|[k w] r IH]; simpl; [now destruct (f y)|].
  destruct (f k) eqn:Ek; simpl; rewrite IH; destruct (N.eqb_spec y k) as [->|]; try reflexivity; now rewrite Ek.
Qed.

Lemma lookup_del A x y (l : list (N * A)) : lookup y (del x l) = if N.eqb y x then None else lookup y l.
Proof. unfold del. rewrite (lookup_filter A (fun k => negb (N.eqb k x))). now destruct (N.eqb y x). Qed.

Lemma lookup_dels A xs y (l : list (N * A)) : lookup y (dels xs l) = if memb y xs then None else lookup y l.
Proof. unfold dels. rewrite (lookup_filter A (fun k => negb (memb k xs))). now destruct (memb y xs). Qed.

Lemma lookup_put A x y (v : A) l : lookup y (put x v l) = if N.eqb y x then Some v else lookup y l.
Proof. unfold put. simpl. rewrite lookup_del. now destruct (N.eqb y x). Qed.

Lemma lookup_aget A x (l : list (N * A)) : lookup x l = aget N.eqb x l.
Proof. induction l as [|[k w] r IH]; simpl; [|rewrite IH]; reflexivity. Qed.

Lemma lookup_Some_In A x (v : A) l : lookup x l = Some v -> In (x, v) l.
Proof. rewrite lookup_aget. apply (aget_In N.eqb_spec). Qed.

Lemma lookup_None_dom A x (l : list (N * A)) : lookup x l = None <-> ~ In x (dom l).
Proof. rewrite lookup_aget. apply (aget_notin N.eqb_spec). Qed.

Lemma lookup_dom A x (l : list (N * A)) : In x (dom l) <-> exists v, lookup x l = Some v.
Proof.
  unfold dom. rewrite <- (aget_keys N.eqb_spec), <- lookup_aget.
  destruct (lookup x l) as [v|]; split; [eauto|discriminate|congruence|now intros [v H]].
Qed.

Lemma In_dom A x (v : A) l : In (x, v) l -> In x (dom l).
Proof. apply (in_map fst l (x, v)). Qed.

Lemma In_lookup_NoDup A x (v : A) l : NoDup (dom l) -> In (x, v) l -> lookup x l = Some v.
Proof. rewrite lookup_aget. apply (In_aget N.eqb_spec). Qed.

Lemma dom_del A x y (l : list (N * A)) : In y (dom (del x l)) <-> In y (dom l) /\ y <> x.
Proof.
  rewrite !lookup_dom, lookup_del. destruct (N.eqb_spec y x); [|tauto].
  split; [now intros [v H]|tauto].
Qed.

Lemma dom_put A x y (v : A) l : In y (dom (put x v l)) <-> y = x \/ In y (dom l).
Proof.
  rewrite !lookup_dom, lookup_put. destruct (N.eqb_spec y x); [|tauto].
  split; eauto.
Qed.

Lemma dom_put_in A x y (v : A) l : In x (dom l) -> In y (dom (put x v l)) <-> In y (dom l).
Proof. intros Hx. rewrite dom_put. split; [now intros [->|]|auto]. Qed.

Lemma dom_dels A xs y (l : list (N * A)) : In y (dom (dels xs l)) <-> In y (dom l) /\ ~ In y xs.
Proof.
  rewrite !lookup_dom, lookup_dels. destruct (memb_spec y xs); [|tauto].
  split; [now intros [v H]|tauto].
Qed.

Lemma NoDup_dom_put A x (v : A) l : NoDup (dom l) -> NoDup (dom (put x v l)).
Proof.
  intros H. unfold put. change (NoDup (x :: dom (del x l))). constructor.
  - rewrite dom_del. tauto.
  - now apply NoDup_map_filter.
Qed.

Lemma get_many_In A i (v : A) ids0 l : In (i, v) (get_many ids0 l) <-> In i ids0 /\ lookup i l = Some v.
Proof.
  unfold get_many. rewrite in_flat_map. split.
  - intros [j [Hj Hin]]. destruct (lookup j l) as [w|] eqn:E; [|easy]. now destruct Hin as [[= <- <-]|[]].
  - intros [Hi Hl]. exists i. rewrite Hl. simpl. auto.
Qed.

Lemma get_many_length A ids0 (l : list (N * A)) : (length (get_many ids0 l) <= length ids0)%nat.
Proof.
  induction ids0 as [|i r IH]; simpl; [lia|]. rewrite app_length. destruct (lookup i l); simpl; lia.
Qed.

Lemma get_many_dom_NoDup A ids0 (l : list (N * A)) : NoDup ids0 -> NoDup (dom (get_many ids0 l)).
Proof.
  induction ids0 as [|i r IH]; simpl; intros H; [constructor|].
  apply NoDup_cons_iff in H. destruct H as [Hi Hr], (lookup i l) as [v|]; simpl; [|auto].
  change (NoDup (i :: dom (get_many r l))). constructor; [|auto].
  intros Hin. apply in_map_iff in Hin. destruct Hin as [[j w] [<- Hin]]. now apply get_many_In in Hin.
Qed.

Lemma split_last_spec A (l : list A) :
  match split_last l with None => l = [] | Some (p, a) => l = p ++ [a] end.
Proof.
  induction l as [|x r IH]; simpl; [reflexivity|]. destruct (split_last r) as [[p a]|]; now subst.
Qed.

Lemma Qlt_b_true a b : Qlt_b a b = true <-> (a < b)%Q.
Proof.
  unfold Qlt_b. rewrite negb_true_iff, <- not_true_iff_false, Qle_bool_iff.
  split; [apply Qnot_le_lt|apply Qlt_not_le].
Qed.

Lemma Qlt_b_false a b : Qlt_b a b = false <-> (b <= a)%Q.
Proof. unfold Qlt_b. rewrite negb_false_iff. apply Qle_bool_iff. Qed.

Lemma fold_res_app : forall A B (f : A -> B -> result A) l1 l2 a,
  fold_res f (l1 ++ l2) a = bind (fold_res f l1 a) (fold_res f l2).
Proof.
  intros A B f l1. induction l1 as [|b r IH]; intros l2 a; simpl; [reflexivity|].
  destruct (f a b); simpl; auto.
Qed.

Lemma fold_res_inv : forall A B (f : A -> B -> result A) (I : A -> Prop) (Q : B -> Prop),
  (forall a b, I a -> Q b -> exists a', f a b = Ok a' /\ I a') ->
  forall l a, I a -> Forall Q l -> exists a', fold_res f l a = Ok a' /\ I a'.
Proof.
  intros A B f I Q Hstep l. induction l as [|b r IH]; intros a Ha HQ; simpl; [eauto|].
  apply Forall_cons_iff in HQ. destruct HQ as [Hb Hr], (Hstep a b Ha Hb) as [a' [-> Ha']]. simpl. auto.
Qed.

Lemma In_firstn A n (l : list A) x : In x (firstn n l) -> In x l.
Proof. intros H. rewrite <- (firstn_skipn n l). apply in_or_app. now left. Qed.

Lemma NoDup_app_l A (a b : list A) : NoDup (a ++ b) -> NoDup a.
Proof. rewrite NoDup_app_iff. tauto. Qed.

Lemma NoDup_map_firstn A B (f : A -> B) k l : NoDup (map f l) -> NoDup (map f (firstn k l)).
Proof. rewrite <- (firstn_skipn k l) at 1. rewrite map_app. apply NoDup_app_l. Qed.

Lemma filter_all_true A (p : A -> bool) l : (forall x, In x l -> p x = true) -> filter p l = l.
Proof.
  induction l as [|a r IH]; simpl; intros H; [reflexivity|]. rewrite (H a), IH; auto.
Qed.

Lemma filter_len_le A (f : A -> bool) l : (length (filter f l) <= length l)%nat.
Proof. induction l as [|a r IH]; simpl; [lia|]. destruct (f a); simpl; lia. Qed.

Section DistSet.
Variable vec : Type.
Implicit Types (l pre suf rpre : list (item vec)) (ds : distset vec).

Definition sorted l : Prop := StronglySorted Qle (map (@it_d vec) l).

Lemma sorted_cons x l : sorted (x :: l) <-> sorted l /\ forall y, In y l -> (it_d x <= it_d y)%Q.
Proof.
  unfold sorted. simpl. rewrite <- Forall_forall, <- Forall_map. split.
  - apply StronglySorted_inv.
  - intros [H1 H2]. now constructor.
Qed.

Lemma sorted_app a b :
  sorted (a ++ b) <-> sorted a /\ sorted b /\ forall x y, In x a -> In y b -> (it_d x <= it_d y)%Q.
Proof.
  induction a as [|z a IH]; simpl.
  - split; [intros H; repeat split; [constructor|exact H|intros x y []]|tauto].
  - rewrite !sorted_cons, IH. setoid_rewrite in_app_iff. intuition (subst; auto).
Qed.

Lemma sorted_filter (p : item vec -> bool) l : sorted l -> sorted (filter p l).
Proof.
  induction l as [|a r IH]; simpl; [auto|]. rewrite sorted_cons. intros [Hr Ha].
  destruct (p a); [|auto]. apply sorted_cons. split; [auto|]. intros y Hy. apply filter_In in Hy. now apply Ha.
Qed.

Lemma sorted_firstn k l : sorted l -> sorted (firstn k l).
Proof. rewrite <- (firstn_skipn k l) at 1. rewrite sorted_app. tauto. Qed.

Lemma bubble_sorted rpre x suf :
  sorted (rev rpre ++ suf) -> (forall s, In s suf -> (it_d x < it_d s)%Q) -> sorted (bubble rpre x suf).
Proof.
  revert suf. induction rpre as [|y r IH]; intros suf Hs Hlt; simpl.
  - apply sorted_cons. split; [exact Hs|]. intros s Hin. apply Qlt_le_weak. auto.
  - simpl in Hs. rewrite <- app_assoc in Hs. simpl in Hs. destruct (Qlt_b (it_d x) (it_d y)) eqn:E.
    + apply IH; [exact Hs|]. intros s [<-|Hin]; [now apply Qlt_b_true|auto].
    + apply Qlt_b_false in E. rewrite rev_append_rev.
      rewrite sorted_app, !sorted_cons in *. destruct Hs as [S1 [[S2 S4] S3]]. repeat split; auto.
      * intros s Hin. apply Qlt_le_weak. auto.
      * intros s [<-|Hin]; auto.
      * intros a b Ha [<-|[<-|Hb]]; [|apply Qle_trans with (it_d y); [|exact E]|]; apply S3; simpl; auto.
Qed.

Lemma bubble_perm rpre x suf : Permutation (bubble rpre x suf) (x :: rev rpre ++ suf).
Proof.
  revert suf. induction rpre as [|y r IH]; intros suf; simpl; [reflexivity|].
  rewrite <- app_assoc. simpl. destruct (Qlt_b (it_d x) (it_d y)); [apply IH|].
  rewrite rev_append_rev. symmetry. etransitivity; [apply Permutation_middle|].
  apply Permutation_app_head, perm_swap.
Qed.

Lemma push_bubble_perm pre x : Permutation (push_bubble pre x) (x :: pre).
Proof. unfold push_bubble. now rewrite bubble_perm, rev_involutive, app_nil_r. Qed.

Lemma push_bubble_sorted pre x : sorted pre -> sorted (push_bubble pre x).
Proof.
  intros H. apply bubble_sorted; [now rewrite rev_involutive, app_nil_r|easy].
Qed.

Lemma sort_items_sorted l : sorted (sort_items l).
Proof.
  apply (fold_left_inv sorted); [|constructor]. intros a b _. apply push_bubble_sorted.
Qed.

Lemma sort_items_perm l : Permutation (sort_items l) l.
Proof.
  unfold sort_items. change l with ([] ++ l) at 2. generalize (@nil (item vec)).
  induction l as [|a r IH]; intros acc; simpl; [now rewrite app_nil_r|].
  rewrite IH, push_bubble_perm. apply Permutation_middle.
Qed.

Lemma sorted_last pre x it : sorted (pre ++ [x]) -> In it (pre ++ [x]) -> (it_d it <= it_d x)%Q.
Proof.
  rewrite sorted_app, in_app_iff. intros [_ [_ H]] [Hin|[<-|[]]]; [|apply Qle_refl]. apply H; simpl; auto.
Qed.

Definition ds_wok ds : Prop :=
  NoDup (ids (items ds)) /\ incl (ids (items ds)) (seen ds) /\ (length (items ds) <= cap ds)%nat.
Definition ds_ok ds : Prop := ds_wok ds /\ sorted (items ds).

Lemma empty_ds_ok c : ds_ok (@empty_ds vec c).
Proof. repeat split; simpl; [constructor|easy|lia|constructor]. Qed.

Variable dist : vec -> Q.
Definition nw (id : N) (v : vec) : item vec := mkItem id v (dist v) false false.

Lemma awl_seen ds id v : In id (seen ds) -> add_with_limit dist ds (id, v) = ds.
Proof. intros H. apply memb_In in H. unfold add_with_limit. now rewrite H. Qed.

(* the items after a point not seen before was offered: it is skipped (set full, strictly farther
   than the last), or bubbled into [base]: all the items, or all but the last when the set is full *)
Definition awl_items ds id v (its : list (item vec)) : Prop :=
  (its = items ds /\ length (items ds) = cap ds /\
     forall pre lst, items ds = pre ++ [lst] -> (it_d lst < dist v)%Q) \/
  exists base rest, items ds = base ++ rest /\ its = push_bubble base (nw id v) /\
    ((rest = [] /\ (length (items ds) < cap ds)%nat) \/
     exists lst, rest = [lst] /\ (cap ds <= length (items ds))%nat /\
                 (length (items ds) = cap ds -> (dist v <= it_d lst)%Q)).

Lemma awl_cases ds id v :
  (In id (seen ds) /\ add_with_limit dist ds (id, v) = ds) \/
  (~ In id (seen ds) /\ exists its,
     add_with_limit dist ds (id, v) = mkDS its (id :: seen ds) (cap ds) /\ awl_items ds id v its).
Proof.
  destruct (memb_spec id (seen ds)) as [H|H]; [left; auto using awl_seen|right; split; [exact H|]].
  apply memb_false in H. unfold add_with_limit, awl_items. rewrite H. cbv zeta.
  pose proof (split_last_spec _ (items ds)) as Hsl. destruct (split_last (items ds)) as [[pre lst]|].
  - destruct (Nat.ltb_spec (length (items ds)) (cap ds)) as [Hlt|Hge].
    + destruct (Nat.eqb_spec (length (items ds)) (cap ds)); [lia|]. eexists. split; [reflexivity|].
      right. exists (items ds), []. rewrite app_nil_r. auto.
    + destruct (_ && _) eqn:Ef; eexists; (split; [reflexivity|]).
      * apply andb_true_iff in Ef. destruct Ef as [Ef1 Ef2]. apply Nat.eqb_eq in Ef1.
        left. repeat split; auto. intros pre' lst' H'. rewrite Hsl in H'.
        apply app_inj_tail in H'. destruct H' as [_ <-]. now apply Qlt_b_true.
      * right. exists pre, [lst]. repeat split; auto. right. exists lst. repeat split; auto.
        intros Hc. rewrite Hc, Nat.eqb_refl in Ef. now apply Qlt_b_false.
  - rewrite Hsl. cbn [length]. destruct (Nat.eqb_spec 0 (cap ds)); eexists; (split; [reflexivity|]).
    + left. repeat split; auto. intros pre lst H'. now destruct pre.
    + right. exists [], []. repeat split. left. split; [reflexivity|lia].
Qed.

Lemma awl_cap ds p : cap (add_with_limit dist ds p) = cap ds.
Proof. destruct p as [id v], (awl_cases ds id v) as [[_ ->]|[_ [its [-> _]]]]; reflexivity. Qed.

Lemma awl_seen_iff ds id v x : In x (seen (add_with_limit dist ds (id, v))) <-> x = id \/ In x (seen ds).
Proof.
  destruct (awl_cases ds id v) as [[Hs ->]|[_ [its [-> _]]]]; simpl; intuition congruence.
Qed.

Lemma awl_items_in ds id v it : In it (items (add_with_limit dist ds (id, v))) ->
  In it (items ds) \/ (it = nw id v /\ ~ In id (seen ds)).
Proof.
  destruct (awl_cases ds id v) as [[_ ->]|[Hns [its [-> H]]]]; [auto|]. simpl.
  destruct H as [[-> _]|[base [rest [E [-> _]]]]]; [auto|].
  rewrite push_bubble_perm, E, in_app_iff. simpl. intuition.
Qed.

Lemma ids_app l1 l2 : ids (l1 ++ l2) = ids l1 ++ ids l2.
Proof. apply map_app. Qed.

Global Instance ids_perm : Proper (@Permutation _ ==> @Permutation _) (@ids vec).
Proof. intros a b H. now apply Permutation_map. Qed.

Lemma awl_wok ds p : ds_wok ds -> ds_wok (add_with_limit dist ds p).
Proof.
  destruct p as [id v]. intros [Hnd [Hinc Hlen]].
  destruct (awl_cases ds id v) as [[_ ->]|[Hns [its [-> H]]]]; [easy|]. unfold ds_wok. simpl.
  destruct H as [[-> _]|[base [rest [E [-> H]]]]]; [auto using incl_tl|].
  rewrite E, ids_app, app_length in *. repeat split.
  - rewrite push_bubble_perm. constructor; [|exact (NoDup_app_l _ _ _ Hnd)].
    intros Hin. apply Hns, Hinc, in_or_app. now left.
  - intros x Hx. rewrite push_bubble_perm in Hx. destruct Hx as [<-|Hx]; [now left|].
    right. apply Hinc, in_or_app. now left.
  - rewrite push_bubble_perm. destruct H as [[-> Hlt]|[lst [-> _]]]; simpl in *; lia.
Qed.

Lemma awl_sorted ds p : sorted (items ds) -> sorted (items (add_with_limit dist ds p)).
Proof.
  destruct p as [id v]. intros Hs.
  destruct (awl_cases ds id v) as [[_ ->]|[_ [its [-> H]]]]; [easy|]. simpl.
  destruct H as [[-> _]|[base [rest [E [-> _]]]]]; [easy|].
  apply push_bubble_sorted. rewrite E in Hs. now apply sorted_app in Hs.
Qed.

Lemma awl_ok ds p : ds_ok ds -> ds_ok (add_with_limit dist ds p).
Proof. intros [H1 H2]. split; [now apply awl_wok|now apply awl_sorted]. Qed.

Lemma awl_all_inv (I : distset vec -> Prop) ps :
  (forall ds p, In p ps -> I ds -> I (add_with_limit dist ds p)) ->
  forall ds, I ds -> I (add_all_with_limit dist ds ps).
Proof. apply fold_left_inv. Qed.

Lemma awl_all_wok ps ds : ds_wok ds -> ds_wok (add_all_with_limit dist ds ps).
Proof. apply awl_all_inv. intros ds' p _. apply awl_wok. Qed.

Lemma awl_all_sorted ps ds : sorted (items ds) -> sorted (items (add_all_with_limit dist ds ps)).
Proof. apply (awl_all_inv (fun ds => sorted (items ds))). intros ds' p _. apply awl_sorted. Qed.

Lemma awl_all_ok ps ds : ds_ok ds -> ds_ok (add_all_with_limit dist ds ps).
Proof. apply awl_all_inv. intros ds' p _. apply awl_ok. Qed.

Lemma awl_all_cap ps ds : cap (add_all_with_limit dist ds ps) = cap ds.
Proof.
  apply (awl_all_inv (fun ds' => cap ds' = cap ds)); [|reflexivity]. intros ds' p _. now rewrite awl_cap.
Qed.

Lemma awl_all_seen_iff ps ds x :
  In x (seen (add_all_with_limit dist ds ps)) <-> In x (map fst ps) \/ In x (seen ds).
Proof.
  unfold add_all_with_limit. revert ds. induction ps as [|[id v] r IH]; intros ds; simpl; [tauto|].
  rewrite IH, awl_seen_iff. intuition.
Qed.

Lemma awl_all_seen_incl ps ds : incl (seen ds) (seen (add_all_with_limit dist ds ps)).
Proof. intros x Hx. apply awl_all_seen_iff. now right. Qed.

Lemma awl_all_items_in ps ds it : In it (items (add_all_with_limit dist ds ps)) ->
  In it (items ds) \/ exists id v, In (id, v) ps /\ ~ In id (seen ds) /\ it = nw id v.
Proof.
  unfold add_all_with_limit. revert ds. induction ps as [|[id v] r IH]; intros ds Hin; simpl in *; [auto|].
  apply IH in Hin. destruct Hin as [Hin|[id' [v' [Hr [Hns ->]]]]].
  - apply awl_items_in in Hin. destruct Hin as [Hin|[-> Hns]]; [auto|]. right. exists id, v. auto.
  - right. exists id', v'. rewrite awl_seen_iff in Hns. tauto.
Qed.

Lemma add_items_in ds id v it : In it (items (add dist ds (id, v))) ->
  In it (items ds) \/ (it = nw id v /\ ~ In id (seen ds)).
Proof.
  unfold add. destruct (memb_spec id (seen ds)); simpl; [auto|]. rewrite in_app_iff. simpl. intuition.
Qed.

Lemma add_seen_incl : forall ds p, incl (seen ds) (seen (add dist ds p)).
Proof.
  intros ds [id v]. unfold add. destruct (memb id (seen ds)); simpl; auto using incl_refl, incl_tl.
Qed.

Lemma add_all_items_in ps ds it : In it (items (add_all dist ds ps)) ->
  In it (items ds) \/ exists id v, In (id, v) ps /\ it = nw id v.
Proof.
  unfold add_all. revert ds. induction ps as [|[id v] r IH]; intros ds Hin; simpl in *; [auto|].
  apply IH in Hin. destruct Hin as [Hin|[id' [v' [Hr ->]]]]; [|eauto 6].
  apply add_items_in in Hin. destruct Hin as [Hin|[-> _]]; eauto 6.
Qed.

Lemma add_all_wok ps ds :
  ds_wok ds -> (length (items ds) + length ps <= cap ds)%nat -> ds_wok (add_all dist ds ps).
Proof.
  unfold add_all. revert ds. induction ps as [|[id v] r IH]; simpl; intros ds Hw Hl; [exact Hw|].
  apply IH; unfold add; destruct (memb_spec id (seen ds)) as [|Hns]; simpl; rewrite ?app_length; simpl; try lia;
    [exact Hw|].
  destruct Hw as [Hnd [Hinc Hlen]]. unfold ds_wok. simpl. rewrite ids_app, app_length. simpl. repeat split; [| |lia].
  - rewrite <- Permutation_cons_append. constructor; auto.
  - apply incl_app; [now apply incl_tl|]. intros x [<-|[]]. now left.
Qed.
End DistSet.

Section KBest.
Variable vec : Type.
Variable dist : vec -> Q.
Implicit Types (ds : distset vec) (off : list (item vec)).

(* [off]: the distinct points offered so far (as fresh elements) *)
Definition kb ds off : Prop :=
  (forall x, In x (seen ds) <-> In x (ids off)) /\
  (forall it, In it (items ds) -> In it off) /\
  (forall o, In o off -> ~ In (it_id o) (ids (items ds)) -> forall it, In it (items ds) -> (it_d it <= it_d o)%Q) /\
  ((length (items ds) < cap ds)%nat -> forall o, In o off -> In o (items ds)) /\
  NoDup (ids off).

Lemma awl_kb_seen : forall ds off id v, kb ds off -> In id (seen ds) -> kb (add_with_limit dist ds (id, v)) off.
Proof. intros ds off id v H Hs. now rewrite awl_seen. Qed.

Lemma awl_kb_new ds off id v : ds_ok vec ds -> kb ds off -> ~ In id (seen ds) ->
  kb (add_with_limit dist ds (id, v)) (nw vec dist id v :: off).
Proof.
  intros [[Hnd [Hinc Hlen]] Hsort] [K1 [K2 [K3 [K4 K5]]]] Hns.
  pose proof (awl_items_in vec dist ds id v) as Hin.
  destruct (awl_cases vec dist ds id v) as [[Hs _]|[_ [its [E H]]]]; [easy|]. rewrite E in *. clear E.
  set (n := nw vec dist id v) in *. unfold kb. simpl in *.
  (* only which offered points are left out depends on what happened to the new one *)
  enough ((forall o, n = o \/ In o off -> ~ In (it_id o) (ids its) ->
             forall it, In it its -> (it_d it <= it_d o)%Q) /\
          ((length its < cap ds)%nat -> forall o, n = o \/ In o off -> In o its)) as [K3' K4'].
  { split; [intros x; split; (intros [Hx|Hx]; [now left|right; now apply K1])|].
    split; [intros it Hit; destruct (Hin it Hit) as [|[-> _]]; auto|].
    split; [exact K3'|]. split; [exact K4'|]. constructor; [intros Hc; now apply Hns, K1|exact K5]. }
  destruct H as [[-> [Hfull Hlast]]|[base [rest [Ei [-> H]]]]].
  - (* skipped: the last element, hence every element, is nearer *)
    split; [|lia]. intros o [<-|Ho] Hno it Hit; [|now apply K3]. simpl.
    pose proof (split_last_spec _ (items ds)) as Hsl. destruct (split_last (items ds)) as [[pre lst]|].
    + rewrite Hsl in Hsort, Hit. apply Qle_trans with (it_d lst); [exact (sorted_last vec pre lst it Hsort Hit)|].
      apply Qlt_le_weak. exact (Hlast pre lst Hsl).
    + rewrite Hsl in Hit. destruct Hit.
  - destruct H as [[-> Hlt]|[lst [-> [Hge Hle]]]].
    + (* appended: nothing is left out *)
      rewrite app_nil_r in Ei. subst base. split.
      * intros o Ho []. rewrite push_bubble_perm. destruct Ho as [<-|Ho]; [now left|]. right. now apply in_map, K4.
      * intros _ o Ho. rewrite push_bubble_perm. destruct Ho as [<-|Ho]; [now left|]. right. now apply K4.
    + (* written over the last element [lst], which was the farthest and is now left out *)
      assert (Hfull : length (items ds) = cap ds) by lia. specialize (Hle Hfull).
      assert (Hlst : In lst (items ds)) by (rewrite Ei; apply in_elt).
      assert (Hle' : forall it, In it (n :: base) -> (it_d it <= it_d lst)%Q).
      { intros it [<-|Hit]; [exact Hle|]. rewrite Ei in Hsort. apply (sorted_last vec base lst it Hsort), in_or_app. now left. }
      split.
      * intros o Ho Hno it Hit. rewrite push_bubble_perm in Hit, Hno.
        apply Qle_trans with (it_d lst); [now apply Hle'|].
        destruct Ho as [<-|Ho]; [destruct Hno; now left|].
        destruct (N.eq_dec (it_id o) (it_id lst)) as [Heq|Hne].
        -- rewrite (NoDup_map_inj _ off o lst K5 Ho (K2 lst Hlst) Heq). apply Qle_refl.
        -- apply K3; auto. rewrite Ei, ids_app, in_app_iff. intros [Hc|[Hc|[]]]; [apply Hno; now right|now apply Hne].
      * intros Hc. rewrite push_bubble_perm in Hc. rewrite Ei, app_length in Hfull. simpl in *. lia.
Qed.

Lemma awl_all_kb ps ds off : ds_ok vec ds -> kb ds off ->
  NoDup (map fst ps) -> (forall p, In p ps -> ~ In (fst p) (seen ds)) ->
  kb (add_all_with_limit dist ds ps) (rev (map (fun p => nw vec dist (fst p) (snd p)) ps) ++ off).
Proof.
  unfold add_all_with_limit. revert ds off. induction ps as [|[id v] r IH]; intros ds off Hok Hkb Hnd Hns; simpl in *; [exact Hkb|].
  apply NoDup_cons_iff in Hnd. destruct Hnd as [Hid Hr]. rewrite <- app_assoc. simpl. apply IH.
  - now apply awl_ok.
  - apply awl_kb_new; [exact Hok|exact Hkb|]. apply (Hns (id, v)). now left.
  - exact Hr.
  - intros p Hp. rewrite awl_seen_iff. intros [Hc|Hc].
    + apply Hid. rewrite <- Hc. now apply in_map.
    + apply (Hns p); [now right|exact Hc].
Qed.

Lemma kb_empty c : kb (@empty_ds vec c) [].
Proof. repeat split; simpl; try easy. constructor. Qed.

Lemma distset_invariants c ps :
  let ds := add_all_with_limit dist (empty_ds c) ps in
  NoDup (ids (items ds)) /\ (length (items ds) <= c)%nat /\ sorted vec (items ds) /\
  (forall it, In it (items ds) -> In (it_id it, it_vec it) ps /\ it_d it = dist (it_vec it)).
Proof.
  intros ds. destruct (awl_all_ok vec dist ps _ (empty_ds_ok vec c)) as [[H1 [_ H3]] H4].
  rewrite awl_all_cap in H3. repeat split; auto; apply awl_all_items_in in H; now destruct H as [[]|[id [v [Hin [_ ->]]]]].
Qed.

Lemma distset_kbest c ps : NoDup (map fst ps) ->
  let ds := add_all_with_limit dist (empty_ds c) ps in
  (forall id v, In (id, v) ps -> ~ In id (ids (items ds)) -> forall it, In it (items ds) -> (it_d it <= dist v)%Q) /\
  length (items ds) = Nat.min c (length ps).
Proof.
  intros Hnd ds. set (off := rev (map (fun p => nw vec dist (fst p) (snd p)) ps)).
  destruct (awl_all_kb ps _ [] (empty_ds_ok vec c) (kb_empty c) Hnd) as [_ [K2 [K3 [K4 K5]]]]; [easy|].
  rewrite app_nil_r, ?awl_all_cap in *. fold ds off in K2, K3, K4, K5.
  destruct (awl_all_ok vec dist ps _ (empty_ds_ok vec c)) as [[H1 [_ H3]] _].
  rewrite awl_all_cap in H3. fold ds in H1, H3. split.
  - intros id v Hin. apply (K3 (nw vec dist id v)). apply -> in_rev.
    now apply (in_map (fun p => nw vec dist (fst p) (snd p)) ps (id, v)).
  - assert (Hoff : length off = length ps) by (unfold off; now rewrite rev_length, map_length).
    (* the kept are among the offered; while there is room it is the other way round as well *)
    assert (Hlen : forall a b : list (item vec), NoDup (ids a) -> incl a b -> (length a <= length b)%nat).
    { intros a b Ha Hab. rewrite <- (map_length (@it_id vec) a), <- (map_length (@it_id vec) b).
      apply NoDup_incl_length; [exact Ha|]. now apply incl_map. }
    pose proof (Hlen _ _ H1 K2) as Hle.
    destruct (Nat.lt_ge_cases (length (items ds)) c) as [Hlt|Hge]; [|simpl in *; lia].
    pose proof (Hlen _ _ K5 (K4 Hlt)). lia.
Qed.
End KBest.

Lemma split_unvisited_spec vec (l : list (item vec)) :
  match split_unvisited l with
  | Some (p, x, s) => l = p ++ x :: s /\ it_vis x = false /\ Forall (fun y => it_vis y = true) p
  | None => Forall (fun y => it_vis y = true) l
  end.
Proof.
  induction l as [|a r IH]; simpl; [constructor|].
  destruct (it_vis a) eqn:Ea; [|now repeat split].
  destruct (split_unvisited r) as [[[p y] s]|]; [|now constructor].
  destruct IH as [-> [H2 H3]]. repeat split; auto.
Qed.

Section Search.
Variable vec : Type.
Variable g : graph vec.
Variable dist : vec -> Q.
Variable Lq : nat.
Variable flt : option (list N).
Variable Sp : N -> Prop.

Definition closed : Prop :=
  Sp START /\
  forall x, Sp x -> (exists v, lookup x (vecs g) = Some v) /\
                    exists es, lookup x (edges g) = Some es /\ forall t, In t es -> Sp t.

Definition good (it : item vec) : Prop :=
  Sp (it_id it) /\ lookup (it_id it) (vecs g) = Some (it_vec it) /\ it_d it = dist (it_vec it).

Lemma ids_set_vis (pre post : list (item vec)) x : ids (pre ++ set_vis x :: post) = ids (pre ++ x :: post).
Proof. now rewrite !ids_app. Qed.

Definition next_result (st : gstate vec) (x : item vec) : option (distset vec) :=
  match flt, gs_result st with
  | Some f, Some r => if memb (it_id x) f then Some (add_with_limit dist r (it_id x, it_vec x)) else Some r
  | _, r => r
  end.

Definition marked (st : gstate vec) pre x post : distset vec :=
  mkDS (pre ++ set_vis x :: post) (seen (gs_search st)) (cap (gs_search st)).

Definition step_to (st st' : gstate vec) pre x post es : Prop :=
  items (gs_search st) = pre ++ x :: post /\ it_vis x = false /\
  Forall (fun y => it_vis y = true) pre /\
  lookup (it_id x) (edges g) = Some es /\
  gs_search st' = add_all_with_limit dist (marked st pre x post) (get_many es (vecs g)) /\
  gs_visited st' = gs_visited st ++ [x] /\
  gs_result st' = next_result st x.

Lemma gs_step_cases st :
  match gs_step g dist Lq flt st with
  | GDone => split_unvisited (firstn Lq (items (gs_search st))) = None
  | GFail e => exists pre x post, items (gs_search st) = pre ++ x :: post /\ it_vis x = false /\
                 lookup (it_id x) (edges g) = None /\ e = EMissingNode (it_id x)
  | GNext st' => exists pre x post es, step_to st st' pre x post es
  end.
Proof.
  unfold gs_step. pose proof (split_unvisited_spec vec (firstn Lq (items (gs_search st)))) as E.
  destruct (split_unvisited _) as [[[pre x] post]|]; [|reflexivity]. destruct E as [E1 [E2 E3]].
  assert (Hit : items (gs_search st) = pre ++ x :: post ++ skipn Lq (items (gs_search st))).
  { rewrite <- (firstn_skipn Lq (items (gs_search st))) at 1. now rewrite E1, <- app_assoc. }
  destruct (lookup (it_id x) (edges g)) as [es|] eqn:El.
  - exists pre, x, (post ++ skipn Lq (items (gs_search st))), es. repeat split; auto.
  - exists pre, x, (post ++ skipn Lq (items (gs_search st))). auto.
Qed.

Lemma sorted_set_vis (pre post : list (item vec)) x :
  sorted vec (pre ++ set_vis x :: post) <-> sorted vec (pre ++ x :: post).
Proof. unfold sorted. now rewrite !map_app. Qed.

Hypothesis Hclosed : closed.

(* the result set is the filtered one when there is a filter, else the (then sorted) search set *)
Definition res_ok (S : distset vec) (rs : option (distset vec)) : Prop :=
  match flt with
  | None => rs = None /\ sorted vec (items S)
  | Some f => exists r, rs = Some r /\ ds_ok vec r /\ forall it, In it (items r) -> good it /\ In (it_id it) f
  end.

Record ginv (st : gstate vec) : Prop := mkGinv {
  gi_wok : ds_wok vec (gs_search st);
  gi_good_s : forall it, In it (items (gs_search st)) -> good it;
  gi_good_v : forall it, In it (gs_visited st) -> good it;
  gi_nodup_v : NoDup (ids (gs_visited st));
  gi_unvis : forall it, In it (items (gs_search st)) -> it_vis it = false -> ~ In (it_id it) (ids (gs_visited st));
  gi_vis_seen : incl (ids (gs_visited st)) (seen (gs_search st));
  gi_res : res_ok (gs_search st) (gs_result st)
}.

Lemma ginv_next st st' : ginv st -> gs_step g dist Lq flt st = GNext st' ->
  exists pre x post es, step_to st st' pre x post es /\
    good x /\ (forall t, In t es -> Sp t) /\ ds_wok vec (marked st pre x post).
Proof.
  intros HI E. pose proof (gs_step_cases st) as Hc. rewrite E in Hc.
  destruct Hc as [pre [x [post [es Hst]]]]. exists pre, x, post, es. split; [exact Hst|].
  destruct Hst as [Hit [_ [_ [Hes _]]]], HI as [[W1 [W2 W3]] Hgs _ _ _ _ _].
  assert (Hgx : good x) by (apply Hgs; rewrite Hit; apply in_elt).
  destruct Hclosed as [_ Hcl], (Hcl _ (proj1 Hgx)) as [_ [es' [Hes' Hall]]].
  rewrite Hes in Hes'. injection Hes' as <-. split; [exact Hgx|]. split; [exact Hall|].
  unfold marked, ds_wok. simpl. rewrite ids_set_vis, <- Hit. repeat split; auto.
  rewrite Hit, app_length in W3. now rewrite app_length.
Qed.

Lemma ginv_step st st' : ginv st -> gs_step g dist Lq flt st = GNext st' -> ginv st'.
Proof.
  intros HI E.
  destruct (ginv_next st st' HI E) as [pre [x [post [es [[Hit [Hvis [Hpre [Hes [HS [HV HR]]]]]] [Hgx [Hsp Hwok1]]]]]]].
  destruct HI as [[W1 [W2 W3]] Hgs Hgv Hndv Hunv Hvs Hres].
  assert (Hx : In x (items (gs_search st))) by (rewrite Hit; apply in_elt).
  assert (Hxseen : In (it_id x) (seen (gs_search st))) by apply W2, in_map, Hx.
  constructor; rewrite ?HS, ?HV, ?HR, ?ids_app.
  - now apply awl_all_wok.
  - intros it Hin. apply awl_all_items_in in Hin. destruct Hin as [Hin|[id [v [Hin [_ ->]]]]].
    + simpl in Hin. apply in_app_or in Hin. destruct Hin as [Hin|[<-|Hin]]; [|exact Hgx|]; apply Hgs; rewrite Hit, in_app_iff; simpl; auto.
    + apply get_many_In in Hin. repeat split; [apply Hsp|]; apply Hin.
  - intros it Hin. apply in_app_or in Hin. destruct Hin as [Hin|[<-|[]]]; auto.
  - simpl. rewrite <- Permutation_cons_append. constructor; auto.
  - intros it Hin Hnv. rewrite in_app_iff. simpl.
    apply awl_all_items_in in Hin. destruct Hin as [Hin|[id [v [Hin [Hns ->]]]]].
    + (* an unvisited old element stands behind x *)
      simpl in Hin. apply in_app_or in Hin. destruct Hin as [Hin|[<-|Hin]]; [|easy|].
      { rewrite Forall_forall in Hpre. now rewrite (Hpre _ Hin) in Hnv. }
      intros [Hc|[Hc|[]]].
      * revert Hc. apply Hunv; [|exact Hnv]. rewrite Hit, in_app_iff. simpl. auto.
      * rewrite Hit, ids_app in W1. apply NoDup_remove_2 in W1. apply W1. rewrite Hc, <- ids_app.
        apply in_map, in_or_app. now right.
    + simpl. intros [Hc|[Hc|[]]]; apply Hns; [now apply Hvs|now rewrite <- Hc].
  - apply incl_app; (eapply incl_tran; [|apply awl_all_seen_incl]); [exact Hvs|]. now intros y [<-|[]].
  - unfold next_result, res_ok in *. destruct flt as [f|].
    + destruct Hres as [r [-> [R1 R2]]]. destruct (memb_spec (it_id x) f) as [Hm|]; [|eauto].
      eexists. split; [reflexivity|]. split; [now apply awl_ok|].
      intros it Hin. apply awl_items_in in Hin. destruct Hin as [Hin|[-> _]]; [auto|].
      destruct Hgx as [G1 [G2 _]]. now repeat split.
    + destruct Hres as [-> Hs]. split; [reflexivity|]. apply awl_all_sorted. simpl.
      now rewrite sorted_set_vis, <- Hit.
Qed.

Lemma ginv_no_fail st e : ginv st -> gs_step g dist Lq flt st <> GFail e.
Proof.
  intros HI E. pose proof (gs_step_cases st) as Hc. rewrite E in Hc.
  destruct Hc as [pre [x [post [Hit [_ [Hl _]]]]]].
  assert (Hgx : good x) by (apply (gi_good_s st HI); rewrite Hit; apply in_elt).
  destruct Hclosed as [_ Hcl], (Hcl _ (proj1 Hgx)) as [_ [es [Hes _]]]. congruence.
Qed.

Lemma ginv_visited_bound st : ginv st -> (length (gs_visited st) <= length (vecs g))%nat.
Proof.
  intros HI. rewrite <- (map_length (@it_id vec) (gs_visited st)), <- (map_length fst (vecs g)).
  apply NoDup_incl_length; [apply (gi_nodup_v st HI)|]. intros y Hy. apply in_map_iff in Hy.
  destruct Hy as [it [<- Hit]]. apply (gi_good_v st HI) in Hit. apply lookup_dom. exists (it_vec it). apply Hit.
Qed.

(* every iteration visits a new element: fuel for one more than the stored vectors is enough.  [I]:
   whatever else every iteration preserves *)
Lemma gs_loop_run (I : gstate vec -> Prop) :
  (forall st st', ginv st -> I st -> gs_step g dist Lq flt st = GNext st' -> I st') ->
  forall fuel st, ginv st -> I st -> (length (vecs g) < fuel + length (gs_visited st))%nat ->
  exists st', gs_loop fuel g dist Lq flt st = Ok st' /\ ginv st' /\ I st' /\ gs_step g dist Lq flt st' = GDone.
Proof.
  intros Hstep fuel. induction fuel as [|f IH]; intros st HI HI' Hlt; simpl;
    destruct (gs_step g dist Lq flt st) as [|st'|e] eqn:E; eauto.
  - pose proof (ginv_visited_bound st HI). lia.
  - now destruct (ginv_no_fail st e HI).
  - apply IH; eauto using ginv_step.
    destruct (ginv_next st st' HI E) as [pre [x [post [es [[_ [_ [_ [_ [_ [HV _]]]]]] _]]]]].
    rewrite HV, app_length. simpl. lia.
  - now destruct (ginv_no_fail st e HI).
Qed.
End Search.

Section GreedySearch.
Variable vec : Type.
Variable d : vec -> vec -> Q.
Variable g : graph vec.
Variable Sp : N -> Prop.
Hypothesis Hclosed : closed vec g Sp.

Definition gs_out (st : gstate vec) : distset vec * list (item vec) :=
  (match gs_result st with Some r => r | None => gs_search st end, sort_items (gs_visited st)).

Definition gs_init (q : vec) (k Lq : nat) (flt : option (list N)) (sv : vec) : gstate vec :=
  match flt with
  | None => mkGS (add_with_limit (d q) (empty_ds Lq) (START, sv)) [] None
  | Some f => let fps := get_many (firstn Lq f) (vecs g) in
              mkGS (add_with_limit (d q) (add_all (d q) (empty_ds Lq) fps) (START, sv)) []
                   (Some (add_all_with_limit (d q) (empty_ds k) fps))
  end.

Lemma greedy_search_unfold q k Lq flt sv : (k <= Lq)%nat -> lookup START (vecs g) = Some sv ->
  greedy_search d g q k Lq flt =
  match gs_loop (S (length (vecs g))) g (d q) Lq flt (gs_init q k Lq flt sv) with
  | Ok st => Ok (gs_out st)
  | Err e => Err e
  end.
Proof.
  intros Hk Hsv. unfold greedy_search, greedy_search_fuel, gs_init.
  apply Nat.ltb_ge in Hk. rewrite Hk. destruct flt; cbv beta iota zeta; now rewrite Hsv.
Qed.

Lemma ginv_init dist flt S0 sv rs :
  ds_wok vec S0 -> (forall it, In it (items S0) -> good vec g dist Sp it) ->
  lookup START (vecs g) = Some sv -> res_ok vec g dist flt Sp S0 rs ->
  ginv vec g dist flt Sp (mkGS (add_with_limit dist S0 (START, sv)) [] rs).
Proof.
  intros Hw Hg Hsv Hres. constructor; simpl; try easy.
  - now apply awl_wok.
  - intros it Hin. apply awl_items_in in Hin. destruct Hin as [|[-> _]]; [auto|].
    repeat split; [apply Hclosed|exact Hsv].
  - constructor.
  - unfold res_ok in *. destruct flt; [exact Hres|]. split; [apply Hres|apply awl_sorted, Hres].
Qed.

(* [Hseed]: the seeds taken from a filter are nodes of the closed set *)
Lemma gs_init_ginv q k Lq flt sv : lookup START (vecs g) = Some sv ->
  (flt <> None -> forall x v, lookup x (vecs g) = Some v -> Sp x) ->
  ginv vec g (d q) flt Sp (gs_init q k Lq flt sv).
Proof.
  intros Hsv Hseed. unfold gs_init. destruct flt as [f|]; cbv zeta; apply ginv_init; auto; try apply empty_ds_ok; try easy.
  - apply add_all_wok; [apply empty_ds_ok|]. simpl. etransitivity; [apply get_many_length|apply firstn_le_length].
  - intros it Hin. apply add_all_items_in in Hin. destruct Hin as [[]|[id [v [Hin ->]]]].
    apply get_many_In in Hin. repeat split; [|apply Hin]. now apply Hseed with v.
  - eexists. split; [reflexivity|]. split; [apply awl_all_ok, empty_ds_ok|]. intros it Hin.
    apply awl_all_items_in in Hin. destruct Hin as [[]|[id [v [Hin [_ ->]]]]]. apply get_many_In in Hin.
    destruct Hin as [Hin Hl]. repeat split; [now apply Hseed with v|exact Hl|now apply In_firstn in Hin].
  - split; [reflexivity|constructor].
Qed.

Lemma greedy_search_run (I : gstate vec -> Prop) q k Lq flt :
  (k <= Lq)%nat -> (flt <> None -> forall x v, lookup x (vecs g) = Some v -> Sp x) ->
  (forall sv, lookup START (vecs g) = Some sv -> I (gs_init q k Lq flt sv)) ->
  (forall st st', ginv vec g (d q) flt Sp st -> I st -> gs_step g (d q) Lq flt st = GNext st' -> I st') ->
  exists st, greedy_search d g q k Lq flt = Ok (gs_out st) /\
    ginv vec g (d q) flt Sp st /\ I st /\ gs_step g (d q) Lq flt st = GDone.
Proof.
  intros Hk Hseed HI0 Hstep. destruct (proj2 Hclosed _ (proj1 Hclosed)) as [[sv Hsv] _].
  rewrite (greedy_search_unfold q k Lq flt sv Hk Hsv).
  destruct (gs_loop_run vec g (d q) Lq flt Sp Hclosed I Hstep (S (length (vecs g))) _
              (gs_init_ginv q k Lq flt sv Hsv Hseed) (HI0 sv Hsv)) as [st [-> H]]; [|eauto].
  unfold gs_init. destruct flt; simpl; lia.
Qed.

Definition gs_post dist flt (rs : distset vec) (vis : list (item vec)) : Prop :=
  ds_ok vec rs /\
  (forall it, In it (items rs) -> good vec g dist Sp it /\ forall f, flt = Some f -> In (it_id it) f) /\
  (forall it, In it vis -> good vec g dist Sp it) /\ NoDup (ids vis).

Lemma ginv_out dist flt st : ginv vec g dist flt Sp st -> gs_post dist flt (fst (gs_out st)) (snd (gs_out st)).
Proof.
  intros [Hwok Hgs Hgv Hndv _ _ Hres]. unfold gs_post, gs_out, res_ok in *. cbn [fst snd]. rewrite sort_items_perm.
  set (rs := match gs_result st with Some r => r | None => gs_search st end).
  enough (ds_ok vec rs /\ forall it, In it (items rs) ->
            good vec g dist Sp it /\ forall f, flt = Some f -> In (it_id it) f) as [H1 H2].
  { split; [exact H1|]. split; [exact H2|]. split; [|exact Hndv].
    intros it Hin. rewrite sort_items_perm in Hin. auto. }
  subst rs. destruct flt as [f|].
  - destruct Hres as [r [-> [R1 R2]]]. split; [exact R1|]. intros it Hin. split; [now apply R2|].
    intros f' [= <-]. now apply R2.
  - destruct Hres as [-> Hs]. split; [now split|]. intros it Hin. split; [auto|easy].
Qed.

Lemma greedy_search_ok q k Lq flt :
  (k <= Lq)%nat -> (flt <> None -> forall x v, lookup x (vecs g) = Some v -> Sp x) ->
  exists rs vis, greedy_search d g q k Lq flt = Ok (rs, vis) /\ gs_post (d q) flt rs vis.
Proof.
  intros Hk Hseed. destruct (greedy_search_run (fun _ => True) q k Lq flt Hk Hseed) as [st [E [HI _]]]; auto.
  rewrite E. eexists. eexists. split; [reflexivity|]. now apply ginv_out.
Qed.
End GreedySearch.

Lemma nodupb_NoDup l : nodupb l = true <-> NoDup l.
Proof. exact (nodup_by_NoDup memb_In l). Qed.

Lemma subsetb_incl a b : subsetb a b = true <-> incl a b.
Proof. unfold subsetb. rewrite forallb_forall. now setoid_rewrite memb_In. Qed.

Lemma wf_b_wf vec (P : params) (g : graph vec) live : wf_b P g live = true <-> wf P g live.
Proof.
  assert (Hset : forall l : list N, (subsetb l (START :: live) = true /\ subsetb (START :: live) l = true) <->
                                    (forall x, In x l <-> x = START \/ In x live)).
  { intros l. rewrite !subsetb_incl. unfold incl. simpl. split; [intros [A B] x; split; [intros Hx; apply A in Hx|]|intros H; split; intros x Hx; [apply H in Hx|apply H]]; intuition. }
  unfold wf_b, wf. rewrite !andb_true_iff. split.
  - intros [[[[[[[[A1 A2] A3] A4] A5] A6] A7] A8] A9]. rewrite forallb_forall in A7, A8, A9.
    refine (conj (proj1 (nodupb_NoDup _) A1) (conj (proj1 (nodupb_NoDup _) A2)
             (conj (proj1 (Hset _) (conj A3 A4)) (conj (proj1 (Hset _) (conj A5 A6)) (conj _ (conj _ _)))))).
    + intros x es t Hin Ht. specialize (A7 _ Hin). rewrite forallb_forall in A7. specialize (A7 _ Ht).
      apply andb_true_iff in A7. destruct A7 as [B1 B2]. split; [now apply memb_In|now apply N.eqb_neq, negb_true_iff].
    + intros x es Hin Hne. destruct (orb_prop _ _ (A8 _ Hin)) as [B|B]; [now apply N.eqb_eq in B|now apply Nat.leb_le].
    + intros x Hx Hne. destruct (orb_prop _ _ (A9 _ Hx)) as [B|B]; [now apply N.eqb_eq in B|now apply N.leb_le].
  - intros [A1 [A2 [A3 [A4 [A5 [A6 A7]]]]]]. apply Hset in A3, A4. rewrite !forallb_forall.
    repeat split; try (now apply nodupb_NoDup); try apply A3; try apply A4.
    + intros [x es] Hin. apply forallb_forall. intros t Ht. destruct (A5 x es t Hin Ht).
      apply andb_true_iff. split; [now apply memb_In|now apply negb_true_iff, N.eqb_neq].
    + intros [x es] Hin. apply orb_true_iff. destruct (N.eq_dec x START); [left; now apply N.eqb_eq|right].
      now apply Nat.leb_le, (A6 x es).
    + intros x Hx. apply orb_true_iff. destruct (N.eq_dec x START); [left; now apply N.eqb_eq|right].
      now apply N.leb_le, A7.
Qed.

Local Arguments greedy_search {vec} d g q k Lq flt : simpl never.
Local Arguments robust_prune {vec} d P self cands : simpl never.
Local Arguments put {A} x v l : simpl never.
Local Arguments dom {A} l : simpl never.
Local Arguments dels {A} xs l : simpl never.
Local Arguments insert_single {vec} d P g id v : simpl never.
Local Arguments back_edge {vec} d P id v g nb : simpl never.
Local Arguments pdn_edges {vec} d P g A vA eA D : simpl never.
Local Arguments edge_scan {vec} g D : simpl never.
Local Arguments remove_inbound {vec} d P g D : simpl never.
Local Arguments classify {vec} d P st c : simpl never.

Definition none : N -> Prop := fun _ => False.

Section WF.
Variable vec : Type.
Variable d : vec -> vec -> Q.
Variable P : params.
Implicit Types (g : graph vec) (live D : list N) (pend dirty : N -> Prop).

Definition node_ok (g : graph vec) (x : N) (es : list N) : Prop :=
  (forall t, In t es -> In t (dom (edges g)) /\ t <> x) /\ (x <> START -> (length es <= pR P)%nat).

(* [wf] generalised by a set [pend] of nodes whose edge lists are stale and unconstrained (updated
   points between removeInboundEdges and their re-insertion) and to which no other node points,
   except the nodes in [dirty] (those removeInboundEdges has still to prune) *)
Record pwf (g : graph vec) (live : list N) (pend dirty : N -> Prop) : Prop := mkPwf {
  pw_nd_e : NoDup (dom (edges g));
  pw_nd_v : NoDup (dom (vecs g));
  pw_dom_e : forall x, In x (dom (edges g)) <-> x = START \/ In x live;
  pw_dom_v : forall x, In x (dom (vecs g)) <-> x = START \/ In x live;
  pw_maxid : forall x, In x live -> x <> START -> (x <= maxid g)%N;
  pw_node : forall x es, lookup x (edges g) = Some es -> ~ pend x -> node_ok g x es;
  pw_clean : forall x es t, lookup x (edges g) = Some es -> ~ pend x -> ~ dirty x -> In t es -> ~ pend t;
  pw_start : ~ pend START
}.
Arguments pw_dom_e {g live pend dirty}.
Arguments pw_dom_v {g live pend dirty}.
Arguments pw_maxid {g live pend dirty}.
Arguments pw_node {g live pend dirty}.
Arguments pw_clean {g live pend dirty}.

Lemma wf_pwf g live : wf P g live <-> pwf g live none none.
Proof.
  split.
  - intros [W1 [W2 [W3 [W4 [W5 [W6 W7]]]]]]. split; auto; try easy.
    + intros x Hx Hne. apply W7; [apply W3; now right|exact Hne].
    + intros x es Hl _. apply lookup_Some_In in Hl. split; [intros t; apply (W5 x es t Hl)|apply (W6 x es Hl)].
  - intros [V1 V2 V3 V4 V5 V6 _ _]. refine (conj V1 (conj V2 (conj V3 (conj V4 (conj _ (conj _ _)))))).
    + intros x es t Hin. apply (In_lookup_NoDup _ _ _ _ V1) in Hin. now apply (V6 x es Hin).
    + intros x es Hin. apply (In_lookup_NoDup _ _ _ _ V1) in Hin. now apply (V6 x es Hin).
    + intros x Hx Hne. apply V3 in Hx. destruct Hx; [easy|]. now apply V5.
Qed.

Lemma pwf_equiv g live live' pend pend' dirty :
  pwf g live pend dirty -> (forall x, In x live <-> In x live') ->
  (forall x, In x (dom (edges g)) -> (pend' x <-> pend x)) -> pwf g live' pend' dirty.
Proof.
  intros [V1 V2 V3 V4 V5 V6 V7 V8] Hl Hp.
  assert (Hp' : forall x es, lookup x (edges g) = Some es -> ~ pend' x -> ~ pend x).
  { intros x es Hx. rewrite Hp; [auto|]. apply lookup_dom. eauto. }
  split; auto.
  - intros x. now rewrite V3, Hl.
  - intros x. now rewrite V4, Hl.
  - intros x Hx. apply V5. now apply Hl.
  - eauto.
  - intros x es t Hx Hxp Hd Ht. rewrite Hp; [eauto|]. now apply (V6 x es Hx); eauto.
  - rewrite Hp; [exact V8|]. apply V3. now left.
Qed.

Lemma pwf_set_edges g live pend dirty dirty' x es :
  pwf g live pend dirty -> In x (dom (edges g)) -> node_ok g x es ->
  (forall t, In t es -> ~ pend t) -> (forall y, dirty y -> y = x \/ dirty' y) ->
  pwf (set_edges g x es) live pend dirty'.
Proof.
  intros [V1 V2 V3 V4 V5 V6 V7 V8] Hx Hok Hes Hd.
  assert (Hdom : forall t, In t (dom (put x es (edges g))) <-> In t (dom (edges g))).
  { intros t. now apply dom_put_in. }
  assert (Hext : forall y esy, node_ok g y esy -> node_ok (set_edges g x es) y esy).
  { intros y esy [A B]. split; [|exact B]. intros t Ht. unfold set_edges. cbn [edges]. rewrite Hdom. auto. }
  unfold set_edges in *. split; cbn [edges vecs maxid]; auto.
  - now apply NoDup_dom_put.
  - intros t. now rewrite Hdom.
  - intros y esy Hl Hy. rewrite lookup_put in Hl. apply Hext.
    destruct (N.eqb_spec y x) as [->|]; [now injection Hl as <-|eauto].
  - intros y esy t Hl Hy Hdy Ht. rewrite lookup_put in Hl.
    destruct (N.eqb_spec y x) as [->|Hne]; [injection Hl as <-; auto|].
    apply (V7 y esy t); auto. intros Hc. destruct (Hd y Hc); auto.
Qed.

Lemma pwf_closed g live pend id v : pwf g live pend none ->
  closed vec (mkGraph (edges g) (put id v (vecs g)) (maxid g)) (fun x => In x (dom (edges g)) /\ ~ pend x).
Proof.
  intros [V1 V2 V3 V4 V5 V6 V7 V8]. split; [split; [apply V3; now left|exact V8]|].
  intros x [Hx Hxp]. split; [apply lookup_dom, dom_put; right; apply V4, V3, Hx|].
  apply lookup_dom in Hx. destruct Hx as [es Hes]. exists es. split; [exact Hes|].
  intros t Ht. split; [now apply (V6 x es Hes Hxp)|now apply (V7 x es t)].
Qed.

Lemma pwf_bump g live pend dirty id : pwf g live pend dirty -> pwf (bump g id) live pend dirty.
Proof.
  intros [V1 V2 V3 V4 V5 V6 V7 V8]. split; auto. intros x Hx Hne. specialize (V5 x Hx Hne). unfold bump. simpl. lia.
Qed.

Lemma rp_loop_spec (Q : N * vec -> Prop) self cands acc :
  (forall c, In c cands -> it_id c <> self -> Q (it_id c, it_vec c)) -> Forall Q acc ->
  (length acc < pR P)%nat ->
  Forall Q (rp_loop d P self acc cands) /\ (length (rp_loop d P self acc cands) <= pR P)%nat.
Proof.
  revert acc. induction cands as [|c rest IH]; intros acc Hc Hacc Hlen; simpl; [split; [exact Hacc|lia]|].
  destruct (pruned d (pAlpha P) acc c || N.eqb (it_id c) self) eqn:E; [apply IH; simpl in *; auto|].
  apply orb_false_iff in E. destruct E as [_ Hne]. apply N.eqb_neq in Hne.
  assert (Hacc' : Forall Q (acc ++ [(it_id c, it_vec c)])).
  { apply Forall_app. split; [exact Hacc|]. constructor; [|constructor]. apply Hc; simpl; auto. }
  destruct (Nat.leb_spec (pR P) (length (acc ++ [(it_id c, it_vec c)]))) as [Hl|Hl].
  - split; [exact Hacc'|]. rewrite app_length in *. simpl in *. lia.
  - apply IH; simpl in *; auto.
Qed.

Hypothesis HR : (1 <= pR P)%nat.

Lemma robust_prune_spec self cands :
  Forall (fun p => fst p <> self /\ In (fst p) (ids cands)) (robust_prune d P self cands) /\
  (length (robust_prune d P self cands) <= pR P)%nat.
Proof.
  apply rp_loop_spec; [|constructor|simpl; lia]. intros c Hc Hne. split; [exact Hne|]. apply (in_map it_id), Hc.
Qed.

Lemma rp_loop_nodup self cands acc :
  NoDup (map fst acc ++ ids cands) -> NoDup (map fst (rp_loop d P self acc cands)).
Proof.
  revert acc. induction cands as [|c rest IH]; intros acc H; simpl in *; [now rewrite app_nil_r in H|].
  destruct (_ || _); [exact (IH _ (NoDup_remove_1 _ _ _ H))|].
  assert (H' : NoDup (map fst (acc ++ [(it_id c, it_vec c)]) ++ ids rest)) by now rewrite map_app, <- app_assoc.
  destruct (Nat.leb _ _); [exact (NoDup_app_l _ _ _ H')|now apply IH].
Qed.

(* the edge list [es] of a node with edges [eB] after [id] asked to be added: appended while there
   is room, else pruned *)
Definition backed id (eB es : list N) : Prop :=
  incl es (eB ++ [id]) /\ (length es <= pR P)%nat /\ ((length eB + 1 <= pR P)%nat -> es = eB ++ [id]).

Lemma back_edge_spec id v g nB vB eB : lookup nB (edges g) = Some eB ->
  exists es, back_edge d P id v g (nB, vB) = Ok (set_edges g nB es) /\ backed id eB es.
Proof.
  intros HeB. unfold back_edge, backed. rewrite HeB.
  destruct (Nat.ltb_spec (pR P) (length eB + 1)); eexists; (split; [reflexivity|]).
  - set (cs := add _ _ _). destruct (robust_prune_spec nB (sort_items (items cs))) as [RS RL].
    rewrite map_length. split; [|split; [exact RL|lia]].
    unfold incl. apply Forall_forall, Forall_map. eapply Forall_impl; [|exact RS]. intros p [_ Ht].
    apply in_map_iff in Ht. destruct Ht as [c [<- Hc]]. rewrite sort_items_perm in Hc. apply in_or_app.
    apply add_items_in in Hc. destruct Hc as [Hc|[-> _]]; [left|right; now left].
    apply add_all_items_in in Hc. destruct Hc as [[]|[i [vi [Hi ->]]]]. now apply get_many_In in Hi.
  - split; [apply incl_refl|]. split; [rewrite app_length; simpl; lia|reflexivity].
Qed.

Lemma backed_pwf g live pend id nB eB es :
  pwf g live pend none -> In id (dom (edges g)) -> ~ pend id ->
  lookup nB (edges g) = Some eB -> ~ pend nB -> nB <> id ->
  backed id eB es -> pwf (set_edges g nB es) live pend none.
Proof.
  intros Hw Hid Hidp HeB HnBp Hne [H1 [H2 _]]. destruct (pw_node Hw nB eB HeB HnBp) as [OkT _].
  assert (Htgt : forall t, In t es -> (In t (dom (edges g)) /\ t <> nB) /\ ~ pend t).
  { intros t Ht. apply H1, in_app_or in Ht. destruct Ht as [Ht|[<-|[]]]; [|auto].
    split; [now apply OkT|now apply (pw_clean Hw nB eB)]. }
  apply pwf_set_edges with (dirty := none); auto.
  - apply lookup_dom. eauto.
  - split; [|auto]. intros t Ht. now apply Htgt.
  - intros t Ht. now apply Htgt.
Qed.

(* the back edges of distinct neighbours: [J] is whatever every one of them preserves *)
Lemma back_edges_spec (J : graph vec -> Prop) id v (l : list (N * vec)) g0 :
  NoDup (map fst l) -> J g0 ->
  (forall g nB, J g -> In nB (map fst l) ->
     exists eB, lookup nB (edges g) = Some eB /\ forall es, backed id eB es -> J (set_edges g nB es)) ->
  exists g', fold_res (back_edge d P id v) l g0 = Ok g' /\ J g' /\ maxid g' = maxid g0 /\
    forall x, if memb x (map fst l)
              then exists eB es, lookup x (edges g0) = Some eB /\ lookup x (edges g') = Some es /\ backed id eB es
              else lookup x (edges g') = lookup x (edges g0).
Proof.
  revert g0. induction l as [|[nB vB] r IH]; intros g0 Hnd HJ Hstep; simpl in *; [eauto|].
  apply NoDup_cons_iff in Hnd. destruct Hnd as [HnB Hr]. apply memb_false in HnB.
  destruct (Hstep g0 nB HJ (or_introl eq_refl)) as [eB [HeB HJ']].
  destruct (back_edge_spec id v g0 nB vB eB HeB) as [es [-> Hb]]. simpl.
  destruct (IH (set_edges g0 nB es) Hr (HJ' es Hb)) as [g' [E [HJg [Hm Hlk]]]]; [intros g nB' Hg Hin; apply Hstep; auto|].
  exists g'. split; [exact E|]. split; [exact HJg|]. split; [exact Hm|]. intros x. specialize (Hlk x).
  unfold set_edges in Hlk. cbn [edges] in Hlk. rewrite lookup_put in Hlk.
  destruct (N.eqb_spec x nB) as [Hx|Hx]; simpl; [|exact Hlk]. rewrite Hx, HnB in *. eauto.
Qed.

(* what insertSinglePoint does, given what its search returned: the new node [id] points to the
   pruned visited set [eA], every member of [eA] gets the back edge, all else stays.
   [id] may be fresh, pending, or even present already *)
Lemma insert_single_spec g live pend id v rs vis :
  pwf g live pend none -> (id <= maxid g)%N ->
  let g1 := mkGraph (edges g) (put id v (vecs g)) (maxid g) in
  greedy_search d g1 v 1 (pL P) None = Ok (rs, vis) ->
  gs_post vec g1 (fun x => In x (dom (edges g)) /\ ~ pend x) (d v) None rs vis ->
  let eA := map fst (robust_prune d P id vis) in
  exists g', insert_single d P g id v = Ok g' /\
    pwf g' (id :: live) (fun x => pend x /\ x <> id) none /\ maxid g' = maxid g /\
    NoDup eA /\ (forall t, In t eA -> In t (dom (edges g)) /\ t <> id) /\
    lookup id (edges g') = Some eA /\
    forall x, x <> id ->
      if memb x eA
      then exists eB es, lookup x (edges g) = Some eB /\ lookup x (edges g') = Some es /\ backed id eB es
      else lookup x (edges g') = lookup x (edges g).
Proof.
  intros Hw Hmax g1 E [_ [_ [Hgv Hndv]]] eA. pose proof Hw as [V1 V2 V3 V4 V5 V6 V7 V8].
  unfold insert_single. fold g1. rewrite E. fold eA.
  assert (HeA : forall t, In t eA -> t <> id /\ In t (dom (edges g)) /\ ~ pend t).
  { apply Forall_forall, Forall_map. eapply Forall_impl; [|apply robust_prune_spec]. intros p [A B].
    split; [exact A|]. apply in_map_iff in B. destruct B as [c [<- Hc]]. apply Hgv, Hc. }
  set (pend' := fun x => pend x /\ x <> id).
  set (g2 := set_edges g1 id eA).
  assert (Hd2 : forall t, In t (dom (edges g2)) <-> t = id \/ In t (dom (edges g))) by (intros t; apply dom_put).
  assert (Hl2 : forall x, lookup x (edges g2) = if N.eqb x id then Some eA else lookup x (edges g)) by (intros x; apply lookup_put).
  assert (Hw2 : pwf g2 (id :: live) pend' none).
  { split; try (now apply NoDup_dom_put).
    - intros t. rewrite Hd2, V3. split; [intros [->|[->|H]]|intros [->|[<-|H]]]; simpl; auto.
    - intros t. cbn [g2 set_edges g1 vecs]. rewrite dom_put, V4. split; [intros [->|[->|H]]|intros [->|[<-|H]]]; simpl; auto.
    - intros x [<-|Hx] Hne; auto.
    - intros x es Hl Hxp. rewrite Hl2 in Hl. destruct (N.eqb_spec x id) as [->|Hne].
      + injection Hl as <-. split; [|intros _; unfold eA; rewrite map_length; apply robust_prune_spec].
        intros t Ht. apply HeA in Ht. rewrite Hd2. split; [right|]; apply Ht.
      + destruct (V6 x es Hl) as [A B]; [intros Hc; now apply Hxp|]. split; [|exact B].
        intros t Ht. rewrite Hd2. destruct (A t Ht). auto.
    - intros x es t Hl Hxp _ Ht [Hpt _]. rewrite Hl2 in Hl. destruct (N.eqb_spec x id) as [->|Hne].
      + injection Hl as <-. apply HeA in Ht. now apply Ht.
      + apply (V7 x es t); auto. intros Hc. now apply Hxp.
    - now intros [Hc _]. }
  destruct (back_edges_spec (fun g0 => pwf g0 (id :: live) pend' none) id v (robust_prune d P id vis) g2)
    as [g' [-> [Hw' [Hm Hlk]]]]; [now apply rp_loop_nodup|exact Hw2| |].
  { intros g0 nB Hw0 HnB. destruct (HeA nB HnB) as [A [B C]].
    assert (HnB0 : In nB (dom (edges g0))) by (apply (pw_dom_e Hw0), (pw_dom_e Hw2), Hd2; now right).
    apply lookup_dom in HnB0. destruct HnB0 as [eB HeB]. exists eB. split; [exact HeB|]. intros es.
    apply (backed_pwf g0 (id :: live) pend' id nB eB es Hw0); auto.
    - apply (pw_dom_e Hw0), (pw_dom_e Hw2), Hd2. now left.
    - now intros [_ Hc].
    - now intros [Hc _]. }
  exists g'. split; [reflexivity|]. split; [exact Hw'|]. split; [exact Hm|]. split; [now apply rp_loop_nodup|].
  split; [intros t Ht; apply HeA in Ht; tauto|].
  split.
  - specialize (Hlk id). fold eA in Hlk. destruct (memb_spec id eA) as [Hc|_]; [now apply HeA in Hc|].
    now rewrite Hlk, Hl2, N.eqb_refl.
  - intros x Hx. specialize (Hlk x). fold eA in Hlk. rewrite Hl2, (proj2 (N.eqb_neq _ _) Hx) in Hlk. exact Hlk.
Qed.

Lemma edge_scan_spec g D tp ts : NoDup (dom (edges g)) -> edge_scan g D = (tp, ts) ->
  NoDup tp /\
  (forall x, In x tp <-> ~ In x D /\ exists es, lookup x (edges g) = Some es /\ exists t, In t es /\ In t D) /\
  (forall x, In x ts -> In x (dom (edges g)) /\ ~ In x D /\ x <> START).
Proof.
  intros Hnd [= <- <-]. split; [|split].
  - apply NoDup_map_filter, NoDup_map_filter, Hnd.
  - intros x. rewrite in_map_iff. setoid_rewrite filter_In. setoid_rewrite filter_In.
    setoid_rewrite negb_true_iff. setoid_rewrite memb_false. setoid_rewrite existsb_exists.
    setoid_rewrite memb_In. split.
    + intros [[y es] [<- [[Hin Hv] Hex]]]. split; [exact Hv|]. exists es. split; [now apply In_lookup_NoDup|exact Hex].
    + intros [Hv [es [Hl Hex]]]. exists (x, es). apply lookup_Some_In in Hl. auto.
  - intros x Hx. apply filter_In in Hx. destruct Hx as [Hx Hc]. apply andb_true_iff in Hc.
    destruct Hc as [_ Hc]. apply negb_true_iff, N.eqb_neq in Hc.
    apply in_map_iff in Hx. destruct Hx as [[y es] [<- Hin]]. apply filter_In in Hin.
    destruct Hin as [Hin Hv]. apply negb_true_iff, memb_false in Hv. split; [exact (In_dom _ _ _ _ Hin)|auto].
Qed.

Lemma pdn_edges_spec g A vA eA D : (exists t, In t eA /\ In t D) ->
  exists es, pdn_edges d P g A vA eA D = Ok es /\ (length es <= pR P)%nat /\
    forall t, In t es -> In t (dom (vecs g)) /\ ~ In t D /\ t <> A.
Proof.
  intros [t0 [Ht0 Ht0d]]. unfold pdn_edges.
  destruct (filter (fun t => memb t D) eA) as [|e0 er] eqn:Ef.
  { assert (Hin : In t0 (filter (fun t => memb t D) eA)) by (apply filter_In; split; [exact Ht0|now apply memb_In]).
    now rewrite Ef in Hin. }
  rewrite <- Ef. clear Ef e0 er. set (validC := _ ++ _). set (cs := sort_items _).
  assert (Hcs : forall t, In t (ids cs) -> In t (dom (vecs g)) /\ ~ In t D).
  { intros t Ht. apply in_map_iff in Ht. destruct Ht as [c [<- Hc]]. unfold cs in Hc. rewrite sort_items_perm in Hc.
    apply add_all_items_in in Hc. destruct Hc as [[]|[i [vi [Hi ->]]]]. apply get_many_In in Hi. destruct Hi as [Hi Hl].
    split; [apply lookup_dom; eauto|]. apply in_app_or in Hi. rewrite in_flat_map in Hi.
    destruct Hi as [Hi|[p [_ Hi]]]; apply filter_In in Hi; destruct Hi as [_ Hi]; now apply negb_true_iff, memb_false in Hi. }
  destruct (Nat.ltb (pR P) (length cs)) eqn:El; eexists; (split; [reflexivity|]).
  - destruct (robust_prune_spec A cs) as [RS RL]. rewrite map_length. split; [exact RL|].
    apply Forall_forall, Forall_map. eapply Forall_impl; [|exact RS]. intros p [Hne Hp]. apply Hcs in Hp. tauto.
  - apply Nat.ltb_ge in El. rewrite map_length. split; [pose proof (filter_len_le _ (fun it : item vec => negb (N.eqb (it_id it) A)) cs); lia|].
    intros t Ht. apply in_map_iff in Ht. destruct Ht as [c [<- Hc]]. apply filter_In in Hc. destruct Hc as [Hc Hne].
    apply negb_true_iff, N.eqb_neq in Hne. apply (in_map it_id), Hcs in Hc. tauto.
Qed.

Lemma rescue_spec (pts : list (N * vec)) es t :
  In t (rescue es pts) -> In t es \/ (In t (map fst pts) /\ t <> START).
Proof.
  unfold rescue. revert es. induction pts as [|p r IH]; intros es Ht; simpl in *; [auto|].
  apply IH in Ht. destruct Ht as [Ht|[Ht Hne]]; [|auto].
  destruct (N.eqb_spec (fst p) START); [auto|]. destruct (memb (fst p) es); [auto|].
  apply in_app_or in Ht. destruct Ht as [Ht|[<-|[]]]; auto.
Qed.

(* the pruning loop of removeInboundEdges: the nodes still to prune are the dirty ones *)
Lemma pdn_fold D todo g live :
  pwf g live (fun x => In x D) (fun x => In x todo) -> NoDup todo ->
  (forall x, In x todo -> ~ In x D /\ exists es, lookup x (edges g) = Some es /\ exists t, In t es /\ In t D) ->
  exists g', fold_res (prune_delete_neighbour d P D) todo g = Ok g' /\
    pwf g' live (fun x => In x D) none /\ maxid g' = maxid g.
Proof.
  revert g. induction todo as [|A r IH]; intros g Hw Hnd Hspec; simpl; [eauto|].
  destruct (Hspec A (or_introl eq_refl)) as [HAD [eA [HeA Hex]]]. apply NoDup_cons_iff in Hnd.
  assert (HAdom : In A (dom (edges g))) by (apply lookup_dom; eauto).
  assert (HAv : In A (dom (vecs g))) by (apply (pw_dom_v Hw), (pw_dom_e Hw), HAdom).
  apply lookup_dom in HAv. destruct HAv as [vA HvA]. unfold prune_delete_neighbour. rewrite HvA, HeA.
  destruct (pdn_edges_spec g A vA eA D Hex) as [es [-> [Hlen Hes]]]. simpl. apply (IH (set_edges g A es)); [|tauto|].
  - apply pwf_set_edges with (dirty := fun x => In x (A :: r)); auto.
    + split; [|auto]. intros t Ht. apply Hes in Ht. split; [|tauto]. apply (pw_dom_e Hw), (pw_dom_v Hw), Ht.
    + intros t Ht. now apply Hes in Ht.
    + intros y [<-|Hy]; auto.
  - intros x Hx. unfold set_edges. cbn [edges]. rewrite lookup_put.
    destruct (N.eqb_spec x A) as [->|]; [tauto|]. apply Hspec. now right.
Qed.

Lemma remove_inbound_pwf g live D :
  wf P g live -> ~ In START D ->
  exists g', remove_inbound d P g D = Ok g' /\ pwf g' live (fun x => In x D) none /\ maxid g' = maxid g.
Proof.
  intros Hw HS. apply wf_pwf in Hw. pose proof Hw as [V1 V2 V3 V4 V5 V6 _ _].
  unfold remove_inbound. destruct (edge_scan g D) as [tp ts] eqn:Es.
  destruct (edge_scan_spec g D tp ts V1 Es) as [S1 [S2 S3]].
  destruct (pdn_fold D tp g live) as [g1 [-> [Hw1 Hm1]]]; [|exact S1|intros x Hx; now apply S2|].
  { split; auto. intros x es t Hl Hx Hxt Ht Htd. apply Hxt, S2. eauto 7. }
  simpl. destruct ts as [|s0 sr]; [eauto|].
  assert (Hst : In START (dom (edges g1))) by (apply (pw_dom_e Hw1); now left).
  pose proof Hst as Hst'. apply lookup_dom in Hst'. destruct Hst' as [es Hes]. rewrite Hes.
  assert (Hres : forall t, In t (rescue es (get_many (s0 :: sr) (vecs g1))) -> In t (dom (edges g1)) /\ ~ In t D /\ t <> START).
  { intros t Ht. apply rescue_spec in Ht. destruct Ht as [Ht|[Ht Hne]].
    - split; [now apply (pw_node Hw1 START es Hes HS)|]. split; [now apply (pw_clean Hw1 START es)|].
      now apply (pw_node Hw1 START es Hes HS).
    - apply in_map_iff in Ht. destruct Ht as [[i vi] [<- Hin]]. apply get_many_In in Hin. destruct Hin as [Hin Hl].
      split; [|split; [now apply S3|exact Hne]]. apply (pw_dom_e Hw1), (pw_dom_v Hw1), lookup_dom. eauto. }
  eexists. split; [reflexivity|]. split; [|exact Hm1].
  apply pwf_set_edges with (dirty := none); auto; [|intros t Ht; now apply Hres].
  split; [|easy]. intros t Ht. apply Hres in Ht. tauto.
Qed.

Lemma delete_nodes_pwf g live pend dl :
  pwf g live pend none -> (forall x, In x dl -> pend x) ->
  pwf (delete_nodes g dl) (filter (fun x => negb (memb x dl)) live) (fun x => pend x /\ ~ In x dl) none.
Proof.
  intros [V1 V2 V3 V4 V5 V6 V7 V8] Hsub.
  assert (Hlive : forall x, x = START \/ In x (filter (fun x => negb (memb x dl)) live) <->
                            (x = START \/ In x live) /\ ~ In x dl).
  { intros x. rewrite filter_In, negb_true_iff, memb_false. split; [|tauto].
    intros [->|H]; [|tauto]. split; [now left|]. intros Hc. now apply V8, Hsub. }
  unfold delete_nodes. split; cbn [edges vecs maxid]; try (now apply NoDup_map_filter).
  - intros x. now rewrite dom_dels, V3, Hlive.
  - intros x. now rewrite dom_dels, V4, Hlive.
  - intros x Hx. apply filter_In in Hx. now apply V5.
  - intros x es Hl Hx. rewrite lookup_dels in Hl. destruct (memb_spec x dl); [easy|].
    assert (Hxp : ~ pend x) by tauto. destruct (V6 x es Hl Hxp) as [A B]. split; [|exact B].
    intros t Ht. cbn [edges]. rewrite dom_dels. split; [split; [now apply A|]|now apply A].
    intros Hc. now apply (V7 x es t Hl Hxp), Hsub.
  - intros x es t Hl Hx _ Ht [Hc _]. rewrite lookup_dels in Hl. destruct (memb_spec x dl); [easy|].
    apply (V7 x es t); auto.
  - tauto.
Qed.

Hypothesis HL : (1 <= pL P)%nat.

Lemma insert_single_pwf g live pend id v :
  pwf g live pend none -> (id <= maxid g)%N ->
  exists g', insert_single d P g id v = Ok g' /\
    pwf g' (id :: live) (fun x => pend x /\ x <> id) none /\ maxid g' = maxid g.
Proof.
  intros Hw Hmax.
  destruct (greedy_search_ok vec d _ _ (pwf_closed g live pend id v Hw) v 1 (pL P) None HL)
    as [rs [vis [E Hpost]]]; [easy|].
  destruct (insert_single_spec g live pend id v rs vis Hw Hmax E Hpost) as [g' [E' [Hw' [Hm _]]]]. eauto.
Qed.

Lemma pwf_none_wf g live id : pwf g live (fun x => none x /\ x <> id) none -> wf P g live.
Proof. intros Hw. apply wf_pwf, (pwf_equiv _ _ _ _ _ _ Hw); [tauto|]. unfold none. tauto. Qed.

Lemma insert_new_wf g live id v :
  wf P g live -> id <> START ->
  exists g', insert_single d P (bump g id) id v = Ok g' /\ wf P g' (id :: live).
Proof.
  intros Hw _. apply wf_pwf, (pwf_bump _ _ _ _ id) in Hw.
  destruct (insert_single_pwf _ live none id v Hw) as [g' [E [Hw' _]]]; [unfold bump; simpl; lia|].
  exists g'. split; [exact E|]. now apply pwf_none_wf in Hw'.
Qed.

Lemma reinsert_fold (upd : list (N * vec)) g live pend :
  pwf g live pend none -> (forall p, In p upd -> (fst p <= maxid g)%N) ->
  exists g', fold_res (fun g c => insert_single d P g (fst c) (snd c)) upd g = Ok g' /\
    pwf g' (rev (map fst upd) ++ live) (fun x => pend x /\ ~ In x (map fst upd)) none.
Proof.
  revert g live pend. induction upd as [|[id v] r IH]; intros g live pend Hw Hids; simpl.
  - exists g. split; [reflexivity|]. apply (pwf_equiv _ _ _ _ _ _ Hw); tauto.
  - destruct (insert_single_pwf g live pend id v Hw (Hids (id, v) (or_introl eq_refl))) as [g1 [-> [Hw1 Hm1]]]. simpl.
    destruct (IH g1 _ _ Hw1) as [g' [-> Hw']]; [intros p Hp; rewrite Hm1; apply Hids; now right|].
    exists g'. split; [reflexivity|]. rewrite <- app_assoc. apply (pwf_equiv _ _ _ _ _ _ Hw'); [tauto|].
    intros x _. simpl. intuition congruence.
Qed.

Definition id_ok (c : N * option vec) : Prop := fst c <> START /\ fst c <> 0%N.

(* the classification loop runs in step with its id-level mirror [batch_cls] *)
Lemma classify_fold (changes : list (N * option vec)) st cur cur' upd' dl' :
  wf P (bs_g st) cur ->
  Forall (fun x => In x cur /\ x <> START) (map fst (bs_upd st) ++ bs_del st) ->
  Forall id_ok changes ->
  batch_cls cur (map fst (bs_upd st)) (bs_del st) changes = (cur', upd', dl') ->
  exists st', fold_res (classify d P) changes st = Ok st' /\ wf P (bs_g st') cur' /\
    map fst (bs_upd st') = upd' /\ bs_del st' = dl' /\
    Forall (fun x => In x cur' /\ x <> START) (upd' ++ dl').
Proof.
  revert st cur. induction changes as [|[id ov] r IH]; intros st cur Hw Hin Hok Hcls; simpl in *.
  { injection Hcls as <- <- <-. eauto 6. }
  apply Forall_cons_iff in Hok. destruct Hok as [[Hs H0] Hokr]. simpl in Hs, H0.
  unfold classify at 1. rewrite (proj2 (N.eqb_neq _ _) Hs), (proj2 (N.eqb_neq _ _) H0). cbn [orb].
  assert (Hlk : lookup id (vecs (bs_g st)) = None <-> ~ In id cur).
  { rewrite lookup_None_dom. destruct Hw as [_ [_ [_ [W4 _]]]]. rewrite W4. tauto. }
  destruct (memb_spec id cur) as [Hm|Hm].
  - destruct (lookup id (vecs (bs_g st))) as [v0|]; [|now apply Hlk in Hm]. destruct ov as [v|]; apply (IH _ cur); simpl; auto.
    + rewrite map_app, !Forall_app in *. split; [split; [apply Hin|now repeat constructor]|apply Hin].
    + now rewrite map_app.
    + rewrite !Forall_app in *. split; [apply Hin|split; [apply Hin|now repeat constructor]].
  - rewrite (proj2 Hlk Hm). destruct ov as [v|]; [|now apply (IH _ cur)].
    destruct (insert_new_wf (bs_g st) cur id v Hw Hs) as [g' [-> Hw']]. simpl. apply (IH _ (id :: cur)); simpl; auto.
    eapply Forall_impl; [|exact Hin]. intros x [A B]. split; [now right|exact B].
Qed.

Lemma vamana_batch_wf g live changes :
  wf P g live -> Forall id_ok changes ->
  exists g', vamana_batch d P g changes = Ok g' /\ wf P g' (batch_live live changes).
Proof.
  intros Hw Hok. unfold vamana_batch, batch_live.
  destruct (batch_cls live [] [] changes) as [[cur' upd'] dl'] eqn:Ecls.
  destruct (classify_fold changes (mkBS g [] []) live cur' upd' dl' Hw (Forall_nil _) Hok Ecls)
    as [st' [-> [Hw1 [Hu [Hd Hin]]]]].
  simpl. set (D := map fst (bs_upd st') ++ bs_del st'). rewrite <- Hu, <- Hd, Forall_forall in Hin. fold D in Hin.
  apply wf_pwf in Hw1.
  assert (HA : exists g2, match D with [] => Ok (bs_g st') | _ :: _ => remove_inbound d P (bs_g st') D end = Ok g2 /\
                          pwf g2 cur' (fun x => In x D) none /\ maxid g2 = maxid (bs_g st')).
  { destruct D eqn:ED; [now exists (bs_g st')|]. rewrite <- ED in *. apply remove_inbound_pwf; [now apply wf_pwf|].
    intros Hc. now apply Hin in Hc. }
  destruct HA as [g2 [-> [Hw2 Hm2]]]. simpl.
  destruct (reinsert_fold (bs_upd st') (delete_nodes g2 (bs_del st')) _ _ (delete_nodes_pwf g2 cur' _ (bs_del st') Hw2
              (fun x Hx => in_or_app _ _ x (or_intror Hx)))) as [g4 [-> Hw4]].
  { intros p Hp. assert (Hpi : In (fst p) D) by (apply in_or_app; left; now apply in_map).
    apply Hin in Hpi. unfold delete_nodes. cbn [maxid]. rewrite Hm2. apply (pw_maxid Hw1); tauto. }
  exists g4. split; [reflexivity|]. apply wf_pwf. apply (pwf_equiv _ _ _ _ _ _ Hw4).
  - intros x. now rewrite Hu, Hd, !in_app_iff, <- in_rev.
  - intros x _. unfold none, D. rewrite in_app_iff. tauto.
Qed.

Definition wf0 g live : Prop := wf P g live \/ (g = empty_graph /\ live = []).

Lemma setup_start_wf v0 g live : wf0 g live -> wf P (setup_start v0 g) live.
Proof.
  intros [Hw|[-> ->]]; unfold setup_start.
  - assert (Hs : In START (dom (vecs g))) by (apply wf_pwf in Hw; apply (pw_dom_v Hw); now left).
    apply lookup_dom in Hs. destruct Hs as [sv ->]. exact Hw.
  - now apply wf_b_wf.
Qed.

Lemma run_history_wf v0 batches g live :
  wf0 g live -> Forall (Forall id_ok) batches ->
  exists g', run_history d P v0 g batches = Ok g' /\ wf0 g' (history_live live batches).
Proof.
  revert g live. induction batches as [|b r IH]; intros g live Hw Hok; simpl; [eauto|].
  apply Forall_cons_iff in Hok. destruct Hok as [Hb Hr].
  destruct (vamana_batch_wf (setup_start v0 g) live b (setup_start_wf v0 g live Hw) Hb) as [g1 [-> Hw1]].
  simpl. apply IH; [now left|exact Hr].
Qed.
End WF.
Arguments pw_dom_e {vec P g live pend dirty}.
Arguments pw_dom_v {vec P g live pend dirty}.

Local Arguments search {vec} d g q k Lq w flt : simpl never.
Local Arguments post_process {vec} k w its : simpl never.

Section SearchProps.
Variable vec : Type.
Variable d : vec -> vec -> Q.
Variable P : params.
Implicit Types (g : graph vec) (live : list N).

Lemma wf_closed g live : wf P g live -> closed vec g (fun x => In x (dom (edges g))).
Proof.
  intros [_ [_ [W3 [W4 [W5 _]]]]]. split; [apply W3; now left|]. intros x Hx.
  split; [apply lookup_dom, W4, W3, Hx|]. apply lookup_dom in Hx. destruct Hx as [es Hes]. exists es.
  split; [exact Hes|]. intros t Ht. now apply (W5 x es t (lookup_Some_In _ _ _ _ Hes)).
Qed.

Lemma wf_seed g live : wf P g live -> forall x v, lookup x (vecs g) = Some v -> In x (dom (edges g)).
Proof. intros [_ [_ [W3 [W4 _]]]] x v Hl. apply W3, W4, lookup_dom. eauto. Qed.

Definition res_of (w : Q) (it : item vec) : sres := mkRes (it_id it) (it_d it) (-1 * it_d it * w).

Lemma search_sound g live q k Lq w flt :
  wf P g live -> (k <= Lq)%nat ->
  exists res, search d g q k Lq w flt = Ok res /\
    NoDup (map sr_id res) /\ (length res <= k)%nat /\ StronglySorted Qle (map sr_dist res) /\
    forall r, In r res ->
      In (sr_id r) live /\ sr_id r <> START /\ (forall f, flt = Some f -> In (sr_id r) f) /\
      (exists v, lookup (sr_id r) (vecs g) = Some v /\ sr_dist r = d q v) /\
      (sr_hybrid r == - (w * sr_dist r))%Q.
Proof.
  intros Hw Hk.
  destruct (greedy_search_ok vec d g _ (wf_closed g live Hw) q k Lq flt Hk) as [rs [vis [E [[[Hnd _] Hs] [Hg _]]]]].
  { intros _. exact (wf_seed g live Hw). }
  unfold search. rewrite E. eexists. split; [reflexivity|]. unfold post_process. rewrite !map_map, map_length.
  split; [|split; [|split]].
  - now apply NoDup_map_firstn, NoDup_map_filter.
  - apply firstn_le_length.
  - now apply sorted_firstn, sorted_filter.
  - intros r Hr. apply in_map_iff in Hr. destruct Hr as [it [<- Hit]]. simpl.
    apply In_firstn, filter_In in Hit. destruct Hit as [Hit Hne]. apply negb_true_iff, N.eqb_neq in Hne.
    destruct (Hg it Hit) as [[G1 [G2 G3]] Hf]. apply wf_pwf in Hw. apply (pw_dom_e Hw) in G1.
    repeat split; eauto; [tauto|ring].
Qed.

Lemma greedy_search_small_filter g live q k Lq f :
  wf P g live -> (k <= Lq)%nat -> (length f <= Lq)%nat ->
  exists vis, greedy_search d g q k Lq (Some f) =
              Ok (add_all_with_limit (d q) (empty_ds k) (get_many f (vecs g)), vis).
Proof.
  intros Hw Hk Hlen. set (r0 := add_all_with_limit _ _ _).
  destruct (greedy_search_run vec d g _ (wf_closed g live Hw) (fun st => gs_result st = Some r0) q k Lq (Some f) Hk)
    as [st [E [_ [Hr _]]]].
  - intros _. exact (wf_seed g live Hw).
  - intros sv _. unfold gs_init. simpl. now rewrite (firstn_all2 f Hlen).
  - (* a visited member of the filter was seeded, hence has been seen by the result set *)
    intros st st' HI Hr E.
    destruct (ginv_next vec g (d q) Lq (Some f) _ (wf_closed g live Hw) st st' HI E)
      as [pre [x [post [es [[_ [_ [_ [_ [_ [_ HR]]]]]] [Hgx _]]]]]].
    rewrite HR. unfold next_result. rewrite Hr. destruct (memb_spec (it_id x) f) as [Hm|]; [|reflexivity].
    f_equal. apply awl_seen, awl_all_seen_iff. left. apply in_map_iff. exists (it_id x, it_vec x).
    split; [reflexivity|]. apply get_many_In. split; [exact Hm|apply Hgx].
  - rewrite E. unfold gs_out. rewrite Hr. eauto.
Qed.

Lemma search_exact_filter g live q k Lq w f :
  wf P g live -> NoDup f -> ~ In START f -> (length f <= Lq)%nat -> (k <= Lq)%nat ->
  let C := get_many f (vecs g) in
  exists res, search d g q k Lq w (Some f) = Ok res /\
    length res = Nat.min k (length C) /\ NoDup (map sr_id res) /\ StronglySorted Qle (map sr_dist res) /\
    (forall r, In r res -> exists v, In (sr_id r, v) C /\ sr_dist r = d q v) /\
    (forall id v, In (id, v) C -> ~ In id (map sr_id res) -> forall r, In r res -> (sr_dist r <= d q v)%Q).
Proof.
  intros Hw Hnd Hst Hlen Hk C.
  destruct (greedy_search_small_filter g live q k Lq f Hw Hk Hlen) as [vis E].
  unfold search. rewrite E. fold C. set (r0 := add_all_with_limit (d q) (empty_ds k) C).
  destruct (distset_invariants vec (d q) k C) as [D1 [D2 [D3 D4]]]. fold r0 in D1, D2, D3, D4.
  destruct (distset_kbest vec (d q) k C (get_many_dom_NoDup _ f (vecs g) Hnd)) as [K1 K2]. fold r0 in K1, K2.
  assert (Hpp : post_process k w (items r0) = map (res_of w) (items r0)).
  { unfold post_process, res_of. f_equal. rewrite filter_all_true; [now apply firstn_all2|].
    intros it Hit. apply negb_true_iff, N.eqb_neq. intros Hc. apply Hst.
    destruct (D4 it Hit) as [Hin _]. apply get_many_In in Hin. rewrite Hc in Hin. apply Hin. }
  eexists. split; [reflexivity|]. rewrite Hpp, map_length, !map_map. repeat split; auto.
  - intros r Hr. apply in_map_iff in Hr. destruct Hr as [it [<- Hit]]. exists (it_vec it). now apply D4.
  - intros id v Hin Hno r Hr. apply in_map_iff in Hr. destruct Hr as [it [<- Hit]]. now apply (K1 id v).
Qed.
End SearchProps.

Section BL.
Variable vec : Type.

(* whether [x] ends up carrying a vector is decided by the one change that names it, if any:
   every other step of the classification leaves its status as it is *)
Lemma batch_cls_live x (changes : list (N * option vec)) cur upd dl cur' upd' dl' :
  NoDup (map fst changes) -> batch_cls cur upd dl changes = (cur', upd', dl') ->
  (In x upd' \/ In x cur' /\ ~ In x dl') <->
  match lookup x changes with
  | None => In x upd \/ In x cur /\ ~ In x dl
  | Some (Some _) => In x cur \/ In x upd \/ ~ In x dl
  | Some None => In x upd
  end.
Proof.
  revert cur upd dl. induction changes as [|[id ov] r IH]; intros cur upd dl Hnd E; simpl in *.
  { injection E as <- <- <-. tauto. }
  apply NoDup_cons_iff in Hnd. destruct Hnd as [Hid Hr]. apply lookup_None_dom in Hid.
  destruct (N.eqb_spec x id) as [->|Hx].
  - destruct (memb_spec id cur) as [Em|Em], ov as [v|]; rewrite (IH _ _ _ Hr E), Hid, ?in_app_iff; simpl; intuition.
  - (* another id's step does not touch x *)
    assert (Hc : forall l, In x (id :: l) <-> In x l) by (split; [now intros [<-|]|now right]).
    assert (Ha : forall l, In x (l ++ [id]) <-> In x l).
    { intros l. rewrite in_app_iff. split; [now intros [|[<-|[]]]|now left]. }
    destruct (memb_spec id cur) as [Em|Em], ov as [v|]; rewrite (IH _ _ _ Hr E);
      destruct (lookup x r) as [[w|]|]; now rewrite ?Hc, ?Ha.
Qed.

Lemma batch_live_spec : forall (changes : list (N * option vec)) live,
  NoDup (map fst changes) ->
  forall x, In x (batch_live live changes) <->
            (exists v, In (x, Some v) changes) \/ (In x live /\ ~ In (x, None) changes).
Proof.
  intros changes live Hnd x. unfold batch_live.
  destruct (batch_cls live [] [] changes) as [[cur' upd'] dl'] eqn:E.
  rewrite in_app_iff, filter_In, negb_true_iff, memb_false, (batch_cls_live x changes _ _ _ _ _ _ Hnd E).
  assert (Hin : forall o, In (x, o) changes <-> lookup x changes = Some o).
  { split; [now apply In_lookup_NoDup|apply lookup_Some_In]. }
  setoid_rewrite Hin. clear. destruct (lookup x changes) as [[v|]|]; simpl.
  - split; [eauto|tauto].
  - split; [easy|]. intros [[v [=]]|[_ H]]. now destruct H.
  - split; [intros [[]|[H _]]; right; now split|]. intros [[v [=]]|[H _]]. tauto.
Qed.
End BL.

Lemma delete_batch_wf vec (d : vec -> vec -> Q) (P : params) :
  (1 <= pR P)%nat -> (1 <= pL P)%nat ->
  forall (g : graph vec) live (dl : list N),
  wf P g live -> NoDup dl -> ~ In START dl -> ~ In 0%N dl ->
  exists g' live', vamana_batch d P g (map (fun i => (i, None)) dl) = Ok g' /\ wf P g' live' /\
                   forall x, In x live' <-> In x live /\ ~ In x dl.
Proof.
  intros HR HL g live dl Hw Hnd Hs H0.
  destruct (vamana_batch_wf vec d P HR HL g live (map (fun i => (i, None)) dl) Hw) as [g' [E Hw']].
  { apply Forall_map, Forall_forall. intros i Hi. split; simpl; now intros ->. }
  exists g', (batch_live live (map (fun i => (i, @None vec)) dl)). split; [exact E|]. split; [exact Hw'|].
  intros x. rewrite batch_live_spec by (rewrite map_map; simpl; now rewrite map_id).
  setoid_rewrite in_map_iff. split.
  - intros [[v [i [[=] _]]]|[A B]]. split; [exact A|]. intros Hc. apply B. now exists x.
  - intros [A B]. right. split; [exact A|]. now intros [i [[= ->] Hi]].
Qed.

Lemma idc_next_inv c used : idc_inv c used ->
  ~ In (fst (idc_next c)) used /\ fst (idc_next c) <> START /\ fst (idc_next c) <> 0%N /\
  idc_inv (snd (idc_next c)) (fst (idc_next c) :: used).
Proof.
  intros [Hnd [H2 Hr]]. unfold idc_next, idc_inv, START. destruct (ic_free c) as [|y r] eqn:E; simpl in *.
  - assert (Hf : ~ In (ic_next c) used) by (intros Hc; specialize (Hr _ Hc); lia).
    split; [exact Hf|]. split; [lia|]. split; [lia|]. split; [now constructor|]. split; [lia|].
    intros x [<-|Hx]; [|specialize (Hr _ Hx)]; lia.
  - pose proof (Hr y (or_introl eq_refl)) as Hy. split; [|split; [lia|split; [lia|split; [|split; [exact H2|]]]]].
    + apply NoDup_cons_iff in Hnd. rewrite in_app_iff in Hnd. tauto.
    + exact (Permutation_NoDup (Permutation_middle r used y) Hnd).
    + intros x Hx. apply Hr. rewrite in_app_iff in *. simpl in *. tauto.
Qed.

Lemma idc_free_inv c used x : idc_inv c used -> In x used ->
  idc_inv (idc_free c x) (filter (fun y => negb (N.eqb y x)) used).
Proof.
  intros [Hnd [H2 Hr]] Hx. unfold idc_free, idc_inv. simpl. split; [|split; [exact H2|]].
  - apply NoDup_app_iff in Hnd. destruct Hnd as [Hf [Hu Hd]].
    rewrite !NoDup_app_iff. setoid_rewrite filter_In. setoid_rewrite in_app_iff. simpl.
    split; [split; [exact Hf|split]|split; [now apply NoDup_filter|]].
    + constructor; [easy|constructor].
    + intros y Hy [<-|[]]. now apply (Hd x).
    + intros y [Hy|[<-|[]]] [Hy' Hne]; [now apply (Hd y)|]. now rewrite N.eqb_refl in Hne.
  - intros y Hy. apply Hr. rewrite !in_app_iff, filter_In in *. simpl in Hy.
    destruct Hy as [[Hy|[<-|[]]]|[Hy _]]; auto.
Qed.

Section NoDrop.
Variable vec : Type.
Variable dist : vec -> Q.
Variable dm : list N.

(* every id comes from [dm], which fits in the set, and everything seen so far is kept *)
Definition full_view (ds : distset vec) : Prop :=
  incl (ids (items ds)) dm /\ (length dm <= cap ds)%nat /\ incl (seen ds) (ids (items ds)).

Lemma awl_full ds id v :
  ds_wok vec ds -> full_view ds -> In id dm -> full_view (add_with_limit dist ds (id, v)).
Proof.
  intros [Hnd [Hinc Hlen]] [Hdm [Hcap Hseen]] Hid.
  destruct (awl_cases vec dist ds id v) as [[_ ->]|[Hns [its [-> H]]]]; [easy|].
  (* there is room: the ids kept and the new one are distinct members of dm *)
  assert (Hlt : (length (id :: ids (items ds)) <= length dm)%nat).
  { apply NoDup_incl_length; [constructor; auto|]. intros y [<-|Hy]; auto. }
  simpl in Hlt. unfold ids in Hlt. rewrite map_length in Hlt.
  destruct H as [[_ [Hf _]]|[base [rest [E [-> [[-> _]|[lst [_ [Hge _]]]]]]]]]; try lia.
  rewrite app_nil_r in E. subst base. split; [|split; [exact Hcap|]]; simpl; intros x Hx.
  - rewrite push_bubble_perm in Hx. destruct Hx as [<-|Hx]; auto.
  - rewrite push_bubble_perm. destruct Hx as [<-|Hx]; [now left|right; auto].
Qed.

Lemma awl_all_full ps ds : ds_wok vec ds -> full_view ds -> (forall p, In p ps -> In (fst p) dm) ->
  full_view (add_all_with_limit dist ds ps).
Proof.
  intros Hw Hf Hps. apply (awl_all_inv vec dist (fun ds => ds_wok vec ds /\ full_view ds) ps); [|now split].
  intros ds' [id v] Hp [Hw' Hf']. split; [now apply awl_wok|]. apply awl_full; auto. now apply (Hps (id, v)).
Qed.
End NoDrop.

Section Small.
Variable vec : Type.
Variable g : graph vec.
Variable dist : vec -> Q.
Variable Lq : nat.
Variable Sp : N -> Prop.
Variable dm : list N.
Hypothesis Hclosed : closed vec g Sp.
Hypothesis Hdm : forall x, Sp x -> In x dm.
Hypothesis Hlen : (length dm <= Lq)%nat.

Record sinv (st : gstate vec) : Prop := mkSinv {
  si_full : full_view vec dm (gs_search st);
  si_start : In START (seen (gs_search st));
  si_closed : forall it, In it (items (gs_search st)) -> it_vis it = true ->
                In (it_id it) (ids (gs_visited st)) /\
                forall es t, lookup (it_id it) (edges g) = Some es -> In t es -> In t (seen (gs_search st));
  si_pr_s : forall it, In it (items (gs_search st)) -> it_pr it = false;
  si_pr_v : forall it, In it (gs_visited st) -> it_pr it = false
}.

Lemma sinv_step st st' :
  ginv vec g dist None Sp st -> sinv st -> gs_step g dist Lq None st = GNext st' -> sinv st'.
Proof.
  intros HI [Hfull Hst Hcl Hps Hpv] E.
  destruct (ginv_next vec g dist Lq None Sp Hclosed st st' HI E)
    as [pre [x [post [es [[Hit [Hvis [Hpre [Hes [HS [HV HR]]]]]] [Hgx [Hsp Hwok1]]]]]]].
  assert (Hx : In x (items (gs_search st))) by (rewrite Hit; apply in_elt).
  assert (Hold : forall it, In it (pre ++ set_vis x :: post) -> it = set_vis x \/ In it (items (gs_search st))).
  { intros it. rewrite Hit, !in_app_iff. simpl. intuition. }
  constructor; rewrite ?HS, ?HV, ?ids_app.
  - apply awl_all_full; [exact Hwok1| |].
    + unfold full_view, marked. simpl. now rewrite ids_set_vis, <- Hit.
    + intros [i vi] Hp. apply get_many_In in Hp. apply Hdm, Hsp, Hp.
  - now apply awl_all_seen_incl.
  - intros it Hin Hv. apply awl_all_items_in in Hin. destruct Hin as [Hin|[i [vi [_ [_ ->]]]]]; [|easy].
    rewrite in_app_iff. destruct (Hold it Hin) as [->|Hin'].
    + split; [right; now left|]. simpl. intros es0 t He0 Ht. rewrite Hes in He0. injection He0 as <-.
      apply awl_all_seen_iff. left. destruct (proj2 Hclosed t (Hsp t Ht)) as [[vt Hvt] _].
      apply in_map_iff. exists (t, vt). split; [reflexivity|]. now apply get_many_In.
    + destruct (Hcl it Hin' Hv) as [Q1 Q2]. split; [now left|]. intros es0 t He0 Ht.
      apply awl_all_seen_incl. now apply (Q2 es0).
  - intros it Hin. apply awl_all_items_in in Hin. destruct Hin as [Hin|[i [vi [_ [_ ->]]]]]; [|easy].
    destruct (Hold it Hin) as [->|Hin']; auto. now apply (Hps x).
  - intros it Hin. apply in_app_or in Hin. destruct Hin as [Hin|[<-|[]]]; auto.
Qed.

Lemma sinv_done st : ginv vec g dist None Sp st -> sinv st -> gs_step g dist Lq None st = GDone ->
  forall x, reach g x -> In x (ids (items (gs_search st))) /\ In x (ids (gs_visited st)).
Proof.
  intros HI [[Hdm' [_ Hnd]] Hst Hcl _ _] E. pose proof (gs_step_cases vec g dist Lq None st) as Hc. rewrite E in Hc.
  assert (Hl : (length (items (gs_search st)) <= Lq)%nat).
  { rewrite <- (map_length (@it_id vec)). etransitivity; [|exact Hlen]. apply NoDup_incl_length; [apply HI|exact Hdm']. }
  rewrite (firstn_all2 _ Hl) in Hc. pose proof (split_unvisited_spec vec (items (gs_search st))) as Hv.
  rewrite Hc, Forall_forall in Hv.
  assert (Hall : forall x, In x (ids (items (gs_search st))) ->
            In x (ids (gs_visited st)) /\ forall es t, lookup x (edges g) = Some es -> In t es -> In t (ids (items (gs_search st)))).
  { intros x Hx. apply in_map_iff in Hx. destruct Hx as [it [<- Hit]]. destruct (Hcl it Hit (Hv it Hit)) as [A B].
    split; [exact A|]. intros es t He Ht. now apply Hnd, (B es). }
  assert (Hr : forall x, reach g x -> In x (ids (items (gs_search st)))).
  { intros x Hx. induction Hx as [|x es t _ IH He Ht]; [now apply Hnd|]. now apply (proj2 (Hall x IH) es). }
  intros x Hx. split; [now apply Hr|]. now apply Hall, Hr.
Qed.
End Small.

Section SmallSearch.
Variable vec : Type.
Variable d : vec -> vec -> Q.
Variable g : graph vec.
Variable Sp : N -> Prop.
Variable dm : list N.
Hypothesis Hclosed : closed vec g Sp.
Hypothesis Hdm : forall x, Sp x -> In x dm.

Lemma greedy_search_small q k Lq :
  (k <= Lq)%nat -> (length dm <= Lq)%nat ->
  exists rs vis, greedy_search d g q k Lq None = Ok (rs, vis) /\ gs_post vec g Sp (d q) None rs vis /\
    (forall it, In it vis -> it_pr it = false) /\
    (forall x, reach g x -> In x (ids (items rs)) /\ In x (ids vis)).
Proof.
  intros Hk Hlen.
  destruct (greedy_search_run vec d g Sp Hclosed (sinv vec g dm) q k Lq None Hk) as [st [E [HI [HS Hdone]]]]; [easy| |..].
  - intros sv Hsv. unfold gs_init. constructor; simpl; [| |intros it Hin..|easy]; try apply awl_items_in in Hin.
    + apply awl_full; [apply empty_ds_ok| |apply Hdm, Hclosed]. now repeat split.
    + apply awl_seen_iff. now left.
    + now destruct Hin as [[]|[-> _]].
    + now destruct Hin as [[]|[-> _]].
  - intros st st'. now apply sinv_step.
  - rewrite E. pose proof (sinv_done vec g (d q) Lq Sp dm Hlen st HI HS Hdone) as Hreach.
    eexists. eexists. split; [reflexivity|]. split; [now apply ginv_out|].
    destruct (gi_res _ _ _ _ _ _ HI) as [Er _]. unfold gs_out. rewrite Er. cbn [fst snd]. split.
    + intros it Hin. rewrite sort_items_perm in Hin. now apply (si_pr_v _ _ _ _ HS).
    + intros x Hx. rewrite sort_items_perm. now apply Hreach.
Qed.
End SmallSearch.

Lemma search_exact_small vec (d : vec -> vec -> Q) (P : params) (g : graph vec) live q k Lq w :
  wf P g live -> (forall x, In x (dom (edges g)) -> reach g x) ->
  (length (edges g) <= Lq)%nat -> (k <= Lq)%nat ->
  exists res, search d g q k Lq w None = Ok res /\
    forall x v, In x live -> x <> START -> lookup x (vecs g) = Some v -> ~ In x (map sr_id res) ->
      length res = k /\ forall r, In r res -> (sr_dist r <= d q v)%Q.
Proof.
  intros Hw Hreach Hlen Hk.
  destruct (greedy_search_small vec d g _ (dom (edges g)) (wf_closed vec P g live Hw) (fun x H => H) q k Lq Hk)
    as [rs [vis [E [[[_ Hs] [Hg _]] [_ Hr]]]]]; [unfold dom; now rewrite map_length|].
  unfold search. rewrite E. eexists. split; [reflexivity|].
  intros x v Hx Hne Hl Hno. unfold post_process in *. rewrite map_map in Hno. rewrite map_length.
  set (its := filter _ (items rs)) in *.
  assert (Hsits : sorted vec its) by now apply sorted_filter.
  assert (Hxd : In x (dom (edges g))) by (apply wf_pwf in Hw; apply (pw_dom_e Hw); now right).
  destruct (Hr x (Hreach x Hxd)) as [Hxi _]. apply in_map_iff in Hxi. destruct Hxi as [itx [Ex Hitx]].
  assert (Hitx' : In itx its).
  { apply filter_In. split; [exact Hitx|]. apply negb_true_iff, N.eqb_neq. now rewrite Ex. }
  rewrite <- (firstn_skipn k its) in Hitx', Hsits. apply in_app_or in Hitx'. destruct Hitx' as [Hf|Hsk].
  { destruct Hno. simpl. rewrite <- Ex. now apply (in_map it_id). }
  split.
  - apply firstn_length_le. destruct (Nat.le_gt_cases k (length its)) as [Hle|Hgt]; [exact Hle|].
    rewrite skipn_all2 in Hsk; [easy|lia].
  - intros r Hr'. apply in_map_iff in Hr'. destruct Hr' as [it [<- Hit]]. simpl.
    destruct (Hg itx Hitx) as [[_ [G2 G3]] _]. rewrite Ex, Hl in G2. injection G2 as ->. rewrite <- G3.
    apply sorted_app in Hsits. now apply Hsits.
Qed.

Lemma dels_nil A (l : list (N * A)) : dels [] l = l.
Proof. now apply filter_all_true. Qed.

Lemma delete_nodes_nil vec (g : graph vec) : delete_nodes g [] = g.
Proof. destruct g. unfold delete_nodes. simpl. now rewrite !dels_nil. Qed.

Lemma setup_start_empty vec (v0 : vec) :
  setup_start v0 empty_graph = mkGraph [(START, [])] [(START, v0)] 0.
Proof. reflexivity. Qed.

Section Reach.
Variable vec : Type.
Variable d : vec -> vec -> Q.
Variable P : params.
Implicit Types (g : graph vec) (live : list N).

Lemma rp_loop_prefix self cands acc : incl acc (rp_loop d P self acc cands).
Proof.
  revert acc. induction cands as [|c rest IH]; intros acc; simpl; [apply incl_refl|].
  destruct (_ || _); [apply IH|]. destruct (Nat.leb _ _); [now apply incl_appl|].
  eapply incl_tran; [|apply IH]. now apply incl_appl.
Qed.

Lemma robust_prune_first self c rest :
  it_pr c = false -> it_id c <> self -> In (it_id c, it_vec c) (robust_prune d P self (c :: rest)).
Proof.
  intros Hpr Hne. unfold robust_prune. simpl. unfold pruned. rewrite Hpr. simpl.
  apply N.eqb_neq in Hne. rewrite Hne. destruct (Nat.leb (pR P) 1); [now left|]. apply rp_loop_prefix. now left.
Qed.

(* well-formed, every node reachable from the entry node, no edge twice, no node twice live *)
Definition rinv g live : Prop :=
  wf P g live /\ (forall x, In x (dom (edges g)) -> reach g x) /\
  (forall x es, lookup x (edges g) = Some es -> NoDup es) /\ length (edges g) = S (length live).

Lemma rinv_start v0 : rinv (setup_start v0 (@empty_graph vec)) [].
Proof.
  split; [apply (setup_start_wf vec P); now right|]. rewrite setup_start_empty. simpl. repeat split.
  - intros x [<-|[]]. constructor.
  - intros x es. destruct (N.eqb x START); [intros [= <-]; constructor|easy].
Qed.

Hypothesis HR : (1 <= pR P)%nat.
Hypothesis HL : (1 <= pL P)%nat.

(* on a small graph the new node gets its nearest visited node as a neighbour, and every chosen
   neighbour has room for the back edge *)
Lemma insert_single_reach g live id v :
  rinv g live -> ~ In id (dom (edges g)) -> (length live < Nat.min (pR P) (pL P))%nat ->
  exists g', insert_single d P (bump g id) id v = Ok g' /\ rinv g' (id :: live).
Proof.
  intros [Hw [Hreach [Hnd Hlen]]] Hid Hlt. pose proof Hw as [W1 [_ [W3 [_ [W5 _]]]]].
  pose proof (pwf_bump vec P _ _ _ _ id (proj1 (wf_pwf vec P g live) Hw)) as Hp.
  destruct (greedy_search_small vec d _ _ (dom (edges g)) (pwf_closed vec P _ live none id v Hp)
              (fun x H => proj1 H) v 1 (pL P) HL) as [rs [vis [E [Hpost [Hprv Hr]]]]]; [unfold dom; rewrite map_length; lia|].
  destruct (insert_single_spec vec d P HR _ live none id v rs vis Hp) as [g' [E' [Hw' [_ [HndA [HeA [Hnew Hold]]]]]]];
    [unfold bump; simpl; lia|exact E|exact Hpost|].
  set (eA := map fst (robust_prune d P id vis)) in *. cbn [bump edges] in *.
  apply pwf_none_wf in Hw'. pose proof Hw' as [V1 [_ [V3 _]]].
  exists g'. split; [exact E'|].
  assert (HeA1 : exists B, In B eA).
  { destruct (Hr START (reach_start vec _)) as [_ Hsv]. destruct vis as [|c rest]; [destruct Hsv|].
    exists (it_id c). apply (in_map fst _ (it_id c, it_vec c)), robust_prune_first; [apply Hprv; now left|].
    intros Heq. apply Hid. rewrite <- Heq. apply Hpost. now left. }
  (* a node and its distinct neighbours are nodes: there is room for one more edge *)
  assert (Hlk : forall x eB, lookup x (edges g) = Some eB ->
            lookup x (edges g') = Some (if memb x eA then eB ++ [id] else eB)).
  { intros x eB HeB. assert (Hx : x <> id) by (intros ->; apply Hid, lookup_dom; eauto).
    specialize (Hold x Hx). rewrite HeB in Hold. destruct (memb x eA); [|exact Hold].
    destruct Hold as [eB' [es [[= <-] [-> [_ [_ Happ]]]]]]. rewrite Happ; [reflexivity|].
    pose proof (lookup_Some_In _ _ _ _ HeB) as HB.
    assert (Hl : (length (x :: eB) <= length (dom (edges g)))%nat).
    { apply NoDup_incl_length.
      - constructor; [|now apply (Hnd x)]. intros Hc. now apply (W5 x eB x HB Hc).
      - intros y [<-|Hy]; [now apply (In_dom _ _ eB)|now apply (W5 x eB y HB)]. }
    unfold dom in Hl. rewrite map_length in Hl. simpl in Hl. lia. }
  assert (Hmono : forall x, reach g x -> reach g' x).
  { intros x Hx. induction Hx as [|x es t _ IH He Ht]; [constructor|].
    apply (reach_step vec g' x _ t IH (Hlk x es He)). destruct (memb x eA); [apply in_or_app|]; auto. }
  assert (Hdom' : forall x, In x (dom (edges g')) <-> In x (id :: dom (edges g))).
  { intros x. rewrite V3. simpl. rewrite W3. tauto. }
  split; [exact Hw'|]. split; [|split].
  - (* the new node is reached through a neighbour *)
    intros x Hx. apply Hdom' in Hx. destruct Hx as [<-|Hx]; [|now apply Hmono, Hreach].
    destruct HeA1 as [B HB]. destruct (HeA B HB) as [HBd _].
    pose proof HBd as HB'. apply lookup_dom in HB'. destruct HB' as [eB HeB].
    apply (reach_step vec g' B _ id (Hmono B (Hreach B HBd)) (Hlk B eB HeB)).
    rewrite (proj2 (memb_In B eA) HB). apply in_elt.
  - intros x es Hl. destruct (N.eq_dec x id) as [->|Hx]; [rewrite Hnew in Hl; now injection Hl as <-|].
    assert (Hxd : In x (id :: dom (edges g))) by (apply Hdom', lookup_dom; eauto).
    destruct Hxd as [Hc|Hxd]; [now symmetry in Hc|].
    apply lookup_dom in Hxd. destruct Hxd as [eB HeB]. rewrite (Hlk x eB HeB) in Hl. injection Hl as <-.
    destruct (memb x eA); [|now apply (Hnd x)].
    rewrite <- Permutation_cons_append. constructor; [|now apply (Hnd x)].
    intros Hc. now apply Hid, (W5 x eB id (lookup_Some_In _ _ _ _ HeB)).
  - simpl. rewrite <- Hlen, <- (map_length fst (edges g')), <- (map_length fst (edges g)).
    apply (Permutation_length (l' := id :: dom (edges g))), NoDup_Permutation; [exact V1|now constructor|exact Hdom'].
Qed.

Definition ins_ok (c : N * option vec) : Prop := snd c <> None /\ fst c <> START /\ fst c <> 0%N.

Lemma classify_inserts (changes : list (N * option vec)) g live :
  rinv g live -> Forall ins_ok changes -> NoDup (map fst changes) ->
  (forall c, In c changes -> ~ In (fst c) live) ->
  (length live + length changes <= Nat.min (pR P) (pL P))%nat ->
  exists g', fold_res (classify d P) changes (mkBS g [] []) = Ok (mkBS g' [] []) /\
    rinv g' (rev (map fst changes) ++ live).
Proof.
  revert g live. induction changes as [|[id ov] r IH]; intros g live Hri Hok Hnd Hfresh Hl; simpl in *; [eauto|].
  apply Forall_cons_iff in Hok. destruct Hok as [[Hsome [Hs H0]] Hokr]. simpl in *. destruct ov as [v|]; [|easy].
  apply NoDup_cons_iff in Hnd. destruct Hnd as [Hid Hndr].
  assert (Hidl : ~ In id live) by (apply (Hfresh (id, Some v)); now left).
  pose proof (proj1 Hri) as Hw. apply wf_pwf in Hw.
  assert (Hidg : ~ In id (dom (edges g))) by (rewrite (pw_dom_e Hw); tauto).
  assert (Hlv : lookup id (vecs g) = None) by (apply lookup_None_dom; rewrite (pw_dom_v Hw); tauto).
  unfold classify at 1. simpl. rewrite (proj2 (N.eqb_neq _ _) Hs), (proj2 (N.eqb_neq _ _) H0), Hlv. simpl.
  destruct (insert_single_reach g live id v Hri Hidg) as [g1 [-> Hri1]]; [lia|]. simpl.
  destruct (IH g1 (id :: live) Hri1 Hokr Hndr) as [g' [-> Hri']]; simpl; try lia.
  - intros c Hc [Heq|Hin]; [apply Hid; rewrite Heq; now apply in_map|now apply (Hfresh c); auto].
  - exists g'. split; [reflexivity|]. now rewrite <- app_assoc.
Qed.

Lemma history_inserts v0 (batches : list (list (N * option vec))) g live :
  rinv g live -> Forall (Forall ins_ok) batches -> NoDup (map fst (concat batches)) ->
  (forall c, In c (concat batches) -> ~ In (fst c) live) ->
  (length live + length (concat batches) <= Nat.min (pR P) (pL P))%nat ->
  exists g', run_history d P v0 g batches = Ok g' /\ rinv g' (rev (map fst (concat batches)) ++ live).
Proof.
  revert g live. induction batches as [|b r IH]; intros g live Hri Hok Hnd Hfresh Hl; simpl in *; [eauto|].
  apply Forall_cons_iff in Hok. destruct Hok as [Hb Hr].
  rewrite map_app, NoDup_app_iff in Hnd. destruct Hnd as [Hnb [Hnr Hdis]]. rewrite app_length in *.
  assert (Hset : setup_start v0 g = g).
  { unfold setup_start. assert (Hs : In START (dom (vecs g))) by (apply Hri; now left).
    apply lookup_dom in Hs. now destruct Hs as [sv ->]. }
  rewrite Hset. destruct (classify_inserts b g live Hri Hb Hnb) as [g1 [E Hri1]]; try lia.
  { intros c Hc. apply Hfresh, in_or_app. now left. }
  unfold vamana_batch. rewrite E. simpl. rewrite delete_nodes_nil. destruct (IH g1 _ Hri1 Hr Hnr) as [g' [-> Hri']]; try (rewrite app_length, rev_length, map_length; lia).
  - intros c Hc Hin. apply in_app_or in Hin. destruct Hin as [Hin|Hin].
    + apply in_rev in Hin. apply (Hdis _ Hin). now apply in_map.
    + apply (Hfresh c); [apply in_or_app; now right|exact Hin].
  - exists g'. split; [reflexivity|]. now rewrite map_app, rev_app_distr, <- app_assoc.
Qed.

Lemma reach_insert_only v0 (batches : list (list (N * option vec))) :
  Forall (Forall ins_ok) batches -> NoDup (map fst (concat batches)) ->
  (length (concat batches) <= Nat.min (pR P) (pL P - 1))%nat ->
  exists g live, run_history d P v0 (setup_start v0 empty_graph) batches = Ok g /\ wf P g live /\
    (forall x, In x (dom (edges g)) -> reach g x) /\ length (edges g) = S (length (concat batches)).
Proof.
  intros Hok Hnd Hlen.
  destruct (history_inserts v0 batches _ [] (rinv_start v0) Hok Hnd) as [g [E [Hw [Hr [_ Hl]]]]]; simpl; try lia.
  exists g, (rev (map fst (concat batches)) ++ []). split; [exact E|]. split; [exact Hw|]. split; [exact Hr|].
  now rewrite Hl, app_nil_r, rev_length, map_length.
Qed.
End Reach.
