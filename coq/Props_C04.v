(* Props_C04.v -- property C04: flat vector search is exact k-nearest-neighbour
   search within the filter.  The statements, each derived in a few lines from
   the lemmas of Proofs_C04.v.

   What is proved here (mechanism model Model_C04M.v, spec Model_C04.v):
   - the bounded insertion of flat.go, folded over the points in ANY order (the
     code ranges over a Go map), returns an exact k-smallest selection, sorted,
     of the points that pass the pre-filter (c04_exact, c04_exact_filter);
     limit 0 is refused by request validation (1..75) -- the loop itself would
     index res[-1] (c04_limit_zero_refuted);
   - the coded checker `ksel_code` with which the running check judges every
     real flat search is sound for that specification (c04_checker_sound,
     c04_checker_exact);
   - a vector store enumerates exactly its stored ids: from the keys of the
     bucket (c04_enumeration_complete) and in every state reachable by
     Set/Delete/Fit/Flush/eviction (c04_enumeration_reachable); for the binary
     store this rests on the generated constant bq_idfromkey_suffixes accepting
     'q': with the pinned IdFromKey ('v' only, defect F3) quantised points are
     not enumerated once the cache is gone (c04_binary_cold_refuted,
     c04_binary_reach_refuted);
   - a warm cache and a cold one hand the same set of (id, value) pairs to the
     fold, hence both answers are exact selections of the same candidates with
     the same distances (c04_warm_cold).
   What is NOT proved: that the float32 distance kernels compute the metric
   (C20), the float rounding of jaccard / product quantiser / haversine
   (compared with a tolerance by the checker: validation), that ReadFrom
   decodes what WriteTo wrote (C19), the cache invariant under concurrent
   transactions (C08/C11). *)
From Coq Require Import List NArith ZArith QArith Bool Arith Permutation Sorted.
From Semadb Require Import Bytes U64 KeyLayout Model_C19 Value Obs Dyadic Model_C01 Model_C02 Model_C04 Model_C04M Proofs_C04.
Import ListNotations.
Open Scope N_scope.

(* For EVERY enumeration order of the candidates and every positive limit the
   fold does not panic and its result is a k-smallest selection of the
   candidates: distinct ids, all of them candidates, min(limit, |cands|) many,
   in non-decreasing distance order, and no candidate left out is strictly
   closer than a selected one.  Ties are free (ksel is a relation). *)
Theorem c04_exact : forall (A I : Type) (id : A -> I) (d : A -> Q) (limit : nat) (order cands : list A),
  Permutation order cands -> NoDup (map id cands) -> (0 < limit)%nat ->
  exists res,
    flat_run d limit order = Some res /\ flat_fold d limit order = res /\
    (NoDup (map id res) /\
     incl res cands /\
     length res = Nat.min limit (length cands) /\
     StronglySorted Qle (map d res) /\
     (forall c, In c cands -> ~ In c res -> forall r, In r res -> (d r <= d c)%Q)) /\
    ksel_split d limit cands res.
Proof.
  intros A I id d limit order cands Hp Hnd Hl.
  destruct (flat_run_split d limit order Hl) as (res & E & Hk).
  apply (ksel_split_perm d limit order cands res Hp) in Hk.
  exists res. unfold flat_fold. rewrite E. split; [reflexivity|]. split; [reflexivity|].
  split; [now apply ksel_split_ksel|exact Hk].
Qed.
Print Assumptions c04_exact.

(* with the pre-filter: an exact selection among the stored points that pass it *)
Theorem c04_exact_filter : forall (A I : Type) (id : A -> I) (d : A -> Q) (keep : A -> bool) (limit : nat)
                                  (order stored_points : list A),
  Permutation order stored_points -> NoDup (map id stored_points) -> (0 < limit)%nat ->
  exists res, flat_search d keep limit order = Some res /\
              ksel id d limit (filter keep stored_points) res.
Proof.
  intros A I id d keep limit order stored_points Hp Hnd Hl.
  destruct (flat_search_split d keep limit order stored_points Hp Hl) as (res & E & Hk).
  exists res. split; [exact E|]. apply ksel_split_ksel; [now apply ListFacts.NoDup_map_filter|exact Hk].
Qed.
Print Assumptions c04_exact_filter.

(* limit = 0 (cap(res) = 0): as soon as one point passes the filter the test
   `len(res) == cap(res) && dist >= *res[len(res)-1].Distance` indexes res[-1]:
   the model reaches its panic value.  Hence the hypothesis 0 < limit above;
   the API validates limit to 1..75 before Search is called. *)
Theorem c04_limit_zero_refuted : forall (A : Type) (d : A -> Q) (keep : A -> bool) (order : list A),
  ((exists x, In x order /\ keep x = true) -> flat_search d keep 0 order = None) /\
  ((forall x, In x order -> keep x = false) -> flat_search d keep 0 order = Some []).
Proof.
  intros A d keep order. unfold flat_search. rewrite flat_run_zero. split.
  - intros (x & Hx & Hk). assert (Hin : In x (filter keep order)) by now apply filter_In.
    now destruct (filter keep order).
  - intros H. rewrite (incl_l_nil (l := filter keep order)); [reflexivity|].
    intros x Hx. apply filter_In in Hx as [Hx Hk]. rewrite (H x Hx) in Hk. discriminate.
Qed.
Print Assumptions c04_limit_zero_refuted.

(* Verdict 0 of ksel_code (codes 161..167 of Run_C04) implies: no id twice;
   every row is a candidate and reports a distance accepted by that candidate's
   judgement (exact equality for DExact); min(k,|cs|) rows; non-decreasing
   distances; every exactly-judged candidate left out is at least as far as
   every reported row. *)
Theorem c04_checker_sound : forall (k : N) (cs : list cand) (rows : list row),
  ksel_code k cs rows = 0 ->
  NoDup (map r_id rows) /\
  (forall r, In r rows -> exists c q, In c cs /\ c_id c = r_id r /\ find_cand (r_id r) cs = Some c /\
                                   row_dist r = Some q /\ dist_ok c q = true) /\
  N.of_nat (length rows) = N.min k (N.of_nat (length cs)) /\
  StronglySorted Qle (row_dists rows) /\
  (forall c q, In c cs -> ~ In (c_id c) (map r_id rows) -> c_spec c = DExact q ->
               forall r dr, In r rows -> row_dist r = Some dr -> (dr <= q)%Q).
Proof. exact ksel_code_sound. Qed.
Print Assumptions c04_checker_sound.

(* when all candidates are judged exactly (integer-valued data) and have distinct
   ids, the candidates named by the accepted rows form a `ksel` -- the very
   relation the fold is proved to satisfy -- and every reported distance equals
   the candidate's distance *)
Theorem c04_checker_exact : forall (k : N) (cs : list cand) (rows : list row),
  NoDup (map c_id cs) -> (forall c, In c cs -> exists q, c_spec c = DExact q) ->
  ksel_code k cs rows = 0 ->
  ksel c_id cand_q (N.to_nat k) cs (sel_of cs rows) /\
  Forall2 (fun c r => In c cs /\ c_id c = r_id r /\ exists q, row_dist r = Some q /\ (q == cand_q c)%Q)
          (sel_of cs rows) rows.
Proof. exact ksel_code_ksel. Qed.
Print Assumptions c04_checker_exact.

(* From the keys: a bucket that holds, in any order, the keys of the stored
   points (plain: 'v'; product: 'v' and possibly 'q'; binary: 'v', 'q' or both)
   plus keys that are not node keys, read by a cold ForEach, yields every stored
   id exactly once.  The binary case uses the GENERATED bq_idfromkey_suffixes:
   its proof computes `existsb (N.eqb 113) bq_idfromkey_suffixes = true`. *)
Theorem c04_enumeration_complete :
  (forall ids keys,
     ids_ok ids -> bucket_of keys (plain_keys ids) ->
     NoDup (enum_ids plain_suffixes keys) /\ forall id, In id (enum_ids plain_suffixes keys) <-> In id ids) /\
  (forall (items : list (N * bool)) keys,
     ids_ok (map fst items) -> bucket_of keys (product_keys items) ->
     NoDup (enum_ids [suf_v] keys) /\ forall id, In id (enum_ids [suf_v] keys) <-> In id (map fst items)) /\
  (forall (items : list (N * bq_keys)) keys,
     ids_ok (map fst items) -> bucket_of keys (binary_keys items) ->
     NoDup (enum_ids bq_idfromkey_suffixes keys) /\
     forall id, In id (enum_ids bq_idfromkey_suffixes keys) <-> In id (map fst items)).
Proof.
  exact (conj (enum_plain _ plain_accepts_v)
           (conj (enum_product [suf_v] eq_refl) (enum_binary _ bq_accepts_q bq_accepts_v))).
Qed.
Print Assumptions c04_enumeration_complete.

(* ForEach over a cache: the cached entries that are not deleted, and what the
   bucket yields for ids that are not cached at all *)
Theorem c04_enumeration_cache : forall (V : Type) accepted keys (c : cache V) id,
  In id (enum_ids_cache accepted keys c) <->
  (exists e, In (id, e) c /\ ce_deleted e = false) \/ (~ In id (cache_ids c) /\ yields accepted keys id).
Proof. exact (@enum_ids_cache_spec). Qed.
Print Assumptions c04_enumeration_cache.

(* In every state reachable from an empty store by any sequence of Set, Delete,
   Fit, Flush, eviction of clean entries and loss of the whole cache, for the
   plain store, the product store and the binary store with the CURRENT
   IdFromKey, with a fixed (trained0 = true) or learned threshold: ForEach
   visits an id iff it is stored. *)
Theorem c04_enumeration_reachable : forall c,
  c = cfg_plain \/ c = cfg_product \/ c = cfg_binary ->
  forall (trained0 : bool) (ops : list kop) (id : N),
    enumerated c (krun c (kstate0 trained0) ops) id = stored (krun c (kstate0 trained0) ops) id.
Proof.
  intros c [->|[->| ->]].
  - exact (enum_reachable_on _ _ cfg_plain_ok).
  - exact (enum_reachable_on _ _ cfg_product_ok).
  - exact (enum_reachable_on _ _ cfg_binary_ok).
Qed.
Print Assumptions c04_enumeration_reachable.

(* the pinned IdFromKey ('v' only): a bucket whose points are all quantised
   enumerates to nothing, however many points it stores *)
Theorem c04_binary_cold_refuted :
  (forall (items : list (N * bq_keys)) keys,
     (forall it, In it items -> snd it = BQ_q) -> ids_ok (map fst items) -> bucket_of keys (binary_keys items) ->
     enum_ids bq_idfromkey_suffixes_v0 keys = []) /\
  (exists (items : list (N * bq_keys)) keys,
     items <> [] /\ keys = binary_keys items ++ [bq_threshold_key] /\
     enum_ids bq_idfromkey_suffixes_v0 keys = [] /\ enum_ids bq_idfromkey_suffixes keys = map fst items).
Proof.
  split; [apply enum_binary_q_only; now intros [|[]]|].
  exists [(7, BQ_q); (300, BQ_q)], (binary_keys [(7, BQ_q); (300, BQ_q)] ++ [bq_threshold_key]).
  split; [discriminate|]. split; [reflexivity|]. split; vm_compute; reflexivity.
Qed.
Print Assumptions c04_binary_cold_refuted.

(* the same through the state machine: fixed threshold, write, flush, lose the cache *)
Theorem c04_binary_reach_refuted :
  let s := krun cfg_binary_v0 (kstate0 true) [KSet 7; KFlush; KDropCache] in
  stored s 7 = true /\ enumerated cfg_binary_v0 s 7 = false /\
  enumerated cfg_binary_v0 (krun cfg_binary_v0 (kstate0 true) [KSet 7; KFlush]) 7 = true.
Proof. vm_compute. repeat split. Qed.
Print Assumptions c04_binary_reach_refuted.

(* If the cache is in sync with the bucket (no pending entry, every cached value
   is what ReadFrom decodes, everything loaded, every cached id has an accepted
   key), then ForEach over the warm cache and over an empty one both succeed and
   hand the same set of (id, value) pairs to the callback; and for any two
   iteration orders, any distance on (id, value), any pre-filter and any
   positive limit both searches return exact selections of the same candidates
   whose distance lists are equal (ids may differ among ties only). *)
Theorem c04_warm_cold : forall (V : Type) accepted (read : N -> option V) keys (c : cache V)
                               (d : N * V -> Q) (keep : N * V -> bool) (limit : nat),
  in_sync accepted read keys c -> (0 < limit)%nat ->
  exists warm cold,
    enum_items accepted read keys c = Some warm /\
    enum_items accepted read keys [] = Some cold /\
    Permutation warm cold /\
    forall ow oc, Permutation ow warm -> Permutation oc cold ->
    exists rw rc,
      flat_search d keep limit ow = Some rw /\ flat_search d keep limit oc = Some rc /\
      ksel fst d limit (filter keep warm) rw /\ ksel fst d limit (filter keep warm) rc /\
      Forall2 Qeq (map d rw) (map d rc).
Proof.
  intros V accepted read keys c d keep limit Hsync Hl.
  destruct (enum_items_in_sync accepted read keys c Hsync) as (warm & cold & Ew & Ec & Hnd & Hp).
  exists warm, cold. repeat (split; [assumption|]). intros ow oc How Hoc.
  apply (flat_search_same_dists fst); try assumption. now rewrite Hoc.
Qed.
Print Assumptions c04_warm_cold.

(* two exact selections of the same candidates report the same distances *)
Theorem c04_selection_distances_unique : forall (A : Type) (d : A -> Q) k cands r1 r2,
  NoDup cands -> ksel_split d k cands r1 -> ksel_split d k cands r2 ->
  Forall2 Qeq (map d r1) (map d r2).
Proof. exact (@ksel_split_same_dists). Qed.
Print Assumptions c04_selection_distances_unique.

(* five points (id, distance), two of them tied at distance 2; limit 3 *)
Definition q (z : Z) : Q := inject_Z z.
Definition ex_pts : list (N * Q) := [(1, q 5); (2, q 2); (3, q 7); (4, q 2); (5, q 1)].
Example ex_fold_order1 : flat_fold snd 3 ex_pts = [(5, q 1); (2, q 2); (4, q 2)].
Proof. vm_compute. reflexivity. Qed.
(* another enumeration order: same distances, the tie is resolved the other way round *)
Example ex_fold_order2 : flat_fold snd 3 (rev ex_pts) = [(5, q 1); (4, q 2); (2, q 2)].
Proof. vm_compute. reflexivity. Qed.
Example ex_fold_limit2 : flat_fold snd 2 ex_pts = [(5, q 1); (2, q 2)] /\ flat_fold snd 2 (rev ex_pts) = [(5, q 1); (4, q 2)].
Proof. vm_compute. split; reflexivity. Qed.
Example ex_fold_all : flat_fold snd 75 ex_pts = [(5, q 1); (2, q 2); (4, q 2); (1, q 5); (3, q 7)].
Proof. vm_compute. reflexivity. Qed.
Example ex_search_filter : flat_search snd (fun p => negb (fst p =? 5)) 2 ex_pts = Some [(2, q 2); (4, q 2)].
Proof. vm_compute. reflexivity. Qed.
Example ex_limit_zero : flat_search snd (fun _ => true) 0 ex_pts = None.
Proof. reflexivity. Qed.
(* the hypotheses of c04_exact hold for it, so its conclusion does *)
Example ex_exact_hyps : Permutation (rev ex_pts) ex_pts /\ NoDup (map fst ex_pts) /\ (0 < 3)%nat.
Proof.
  split; [symmetry; apply Permutation_rev|]. split; [|auto with arith].
  cbn. repeat constructor; cbn; intuition discriminate.
Qed.

(* the checker on rows: ids are byte strings, distances float32 bit patterns
   (1.0 = 0x3F800000, 2.0 = 0x40000000, 3.0 = 0x40400000) *)
Definition ex_cands : list cand :=
  [mkCand [1] (DExact (3#1)) None; mkCand [2] (DExact (1#1)) None; mkCand [3] (DExact (2#1)) None; mkCand [4] (DExact (2#1)) None].
Definition ex_row (id : bytes) (bits : N) : row := mkRow id None (Some bits) None 0.
Example ex_checker_accepts :
  ksel_code 2 ex_cands [ex_row [2] 1065353216; ex_row [4] 1073741824] = 0 /\
  ksel_code 2 ex_cands [ex_row [2] 1065353216; ex_row [3] 1073741824] = 0 /\       (* the other tie *)
  ksel_code 75 ex_cands [ex_row [2] 1065353216; ex_row [3] 1073741824; ex_row [4] 1073741824; ex_row [1] 1077936128] = 0.
Proof. vm_compute. repeat split. Qed.
Example ex_checker_rejects :
  ksel_code 2 ex_cands [ex_row [2] 1065353216; ex_row [1] 1077936128] = 7 /\       (* a closer candidate left out *)
  ksel_code 2 ex_cands [ex_row [4] 1073741824; ex_row [2] 1065353216] = 6 /\       (* not sorted *)
  ksel_code 2 ex_cands [ex_row [2] 1065353216] = 5 /\                              (* too few *)
  ksel_code 2 ex_cands [ex_row [2] 1065353216; ex_row [3] 1077936128] = 4 /\       (* wrong distance *)
  ksel_code 2 ex_cands [ex_row [2] 1065353216; ex_row [9] 1073741824] = 2 /\       (* not a candidate *)
  ksel_code 2 ex_cands [ex_row [2] 1065353216; ex_row [2] 1065353216] = 1.         (* duplicate *)
Proof. vm_compute. repeat split. Qed.
Example ex_checker_exact_hyps : NoDup (map c_id ex_cands) /\ (forall c, In c ex_cands -> exists q, c_spec c = DExact q).
Proof.
  split.
  - cbn. repeat constructor; cbn; intuition discriminate.
  - intros c [<-|[<-|[<-|[<-|[]]]]]; eexists; reflexivity.
Qed.

(* a binary store bucket: point 7 quantised, point 9 written before and re-encoded
   by Fit (both keys), point 300 not quantised yet, and the persisted threshold *)
Definition ex_bq_items : list (N * bq_keys) := [(7, BQ_q); (9, BQ_qv); (300, BQ_v)].
Definition ex_bq_keys : list bytes := binary_keys ex_bq_items ++ [bq_threshold_key].
Example ex_enum_binary : enum_ids bq_idfromkey_suffixes ex_bq_keys = [7; 9; 300].
Proof. vm_compute. reflexivity. Qed.
Example ex_enum_binary_v0 : enum_ids bq_idfromkey_suffixes_v0 ex_bq_keys = [9; 300].   (* 7 is lost *)
Proof. vm_compute. reflexivity. Qed.
Example ex_enum_hyps : ids_ok (map fst ex_bq_items) /\ bucket_of ex_bq_keys (binary_keys ex_bq_items).
Proof.
  split.
  - intros id [<-|[<-|[<-|[]]]]; reflexivity.
  - exists [bq_threshold_key]. split; [reflexivity|]. intros k [<-|[]]. exact threshold_key_foreign.
Qed.
(* with a cache: 9 cached and deleted (not flushed yet), 11 cached and dirty (no key yet) *)
Example ex_enum_cache :
  enum_ids_cache bq_idfromkey_suffixes ex_bq_keys [(9, mkCE tt true); (11, mkCE tt false)] = [11; 7; 300].
Proof. vm_compute. reflexivity. Qed.

(* the state machine: a learned-threshold binary store through training and a cold restart *)
Example ex_reach_binary :
  let s := krun cfg_binary (kstate0 false) [KSet 1; KSet 2; KFlush; KDropCache; KSet 3; KFit; KFlush; KDelete 2; KFlush; KDropCache] in
  (enumerated cfg_binary s 1, enumerated cfg_binary s 2, enumerated cfg_binary s 3, enumerated cfg_binary s 4) = (true, false, true, false) /\
  (f_q (s 1), f_v (s 1), f_q (s 3), f_v (s 3), f_trained (s 1)) = (true, true, true, false, true).
Proof. vm_compute. split; reflexivity. Qed.

(* in_sync is satisfiable: a plain store with two points, all cached *)
Definition ex_read (id : N) : option N := if id =? 7 then Some 70 else if id =? 9 then Some 90 else None.
Definition ex_cache : cache N := [(9, mkCE 90 false); (7, mkCE 70 false)].
Example ex_in_sync : in_sync plain_suffixes ex_read (plain_keys [7; 9]) ex_cache.
Proof.
  constructor.
  - cbn. repeat constructor; cbn; intuition discriminate.
  - intros id e [[= <- <-]|[[= <- <-]|[]]]; reflexivity.
  - intros id e [[= <- <-]|[[= <- <-]|[]]]; reflexivity.
  - intros id (k & Hk & E). destruct Hk as [<-|[<-|[]]]; vm_compute in E; injection E as <-; cbn; tauto.
  - intros id [<-|[<-|[]]].
    + exists (node_key 9 suf_v). split; [cbn; tauto|reflexivity].
    + exists (node_key 7 suf_v). split; [cbn; tauto|reflexivity].
Qed.
Example ex_warm_cold :
  enum_items plain_suffixes ex_read (plain_keys [7; 9]) ex_cache = Some [(9, 90); (7, 70)] /\
  enum_items plain_suffixes ex_read (plain_keys [7; 9]) [] = Some [(7, 70); (9, 90)].
Proof. vm_compute. split; reflexivity. Qed.
