(* Proofs_C05.v -- text search (C05).  After any history the index satisfies Inv: its state is the one
   derived from the current token list of every id.  One change of one document writes the document
   table like a map (process_doc_docs) and moves the id from the posting sets of its old terms to
   those of its new ones (repost); flush changes no lookup.  What Search computes is then read off
   Inv and any corpus that represents the same token lists (corpus_rep). *)
From Coq Require Import List NArith ZArith QArith Qabs Bool Lia Permutation Sorted Lqa.
From Semadb Require Import ListFacts Bytes Value Obs Dyadic Model_C01 Model_C02 IdSets Model_C04 Model_C05 Model_C05M.
Import ListNotations.
Open Scope N_scope.

(* a prefix of a sorted arrangement of m is a top selection of m *)
Lemma sorted_prefix {A} (R : A -> A -> Prop) (m l1 l2 : list A) :
  Permutation (l1 ++ l2) m -> StronglySorted R (l1 ++ l2) ->
  StronglySorted R l1 /\ (forall x, In x l1 -> In x m) /\
  (NoDup m -> NoDup l1) /\ (forall x y, In x m -> ~ In x l1 -> In y l1 -> R y x).
Proof.
  intros P HSS. apply StronglySorted_app_iff in HSS as (S1 & _ & S3).
  repeat split; [exact S1| | |].
  - intros x Hx. apply (Permutation_in _ P), in_or_app. now left.
  - intros Hnd. apply (Permutation_NoDup (Permutation_sym P)), NoDup_app_iff in Hnd. apply Hnd.
  - intros x y Hx Hnx Hy. apply (Permutation_in _ (Permutation_sym P)), in_app_or in Hx as [Hx|Hx]; [contradiction|auto].
Qed.
Lemma sorted_cut {A} (R : A -> A -> Prop) (m l : list A) k :
  Permutation l m -> StronglySorted R l ->
  let res := firstn k l in
  length res = Nat.min k (length m) /\ StronglySorted R res /\ (forall x, In x res -> In x m) /\
  (NoDup m -> NoDup res) /\ (forall x y, In x m -> ~ In x res -> In y res -> R y x).
Proof.
  intros P HSS. cbv zeta. split; [now rewrite firstn_length, (Permutation_length P)|].
  rewrite <- (firstn_skipn k l) in P, HSS. exact (sorted_prefix R m _ _ P HSS).
Qed.

Lemma mem_cons x a l : mem_bytes x (a :: l) = bytes_eqb x a || mem_bytes x l.
Proof. reflexivity. Qed.
Lemma mem_ext l1 l2 : (forall x, mem_bytes x l1 = mem_bytes x l2) <-> (forall x, In x l1 <-> In x l2).
Proof.
  split; intros H x.
  - now rewrite <- !mem_bytes_In, H.
  - apply eq_true_iff_eq. rewrite !mem_bytes_In. apply H.
Qed.

Lemma al_get_aget {V} k (l : list (bytes * V)) : al_get k l = aget bytes_eqb k l.
Proof. induction l as [|[k0 v0] l IH]; cbn; [|rewrite IH]; reflexivity. Qed.
Lemma al_put_aupd {V} k (v : V) l : al_put k v l = aupd bytes_eqb k v l.
Proof. induction l as [|[k0 v0] l IH]; cbn; [|rewrite IH]; reflexivity. Qed.
Lemma al_del_adel {V} k (l : list (bytes * V)) : al_del k l = adel bytes_eqb k l.
Proof. symmetry. apply adel_filter. Qed.

Lemma al_get_put {V} k k' (v : V) l :
  al_get k' (al_put k v l) = if bytes_eqb k' k then Some v else al_get k' l.
Proof. rewrite !al_get_aget, al_put_aupd. apply aget_aupd, bytes_eqb_spec. Qed.
Lemma al_get_del {V} k k' (l : list (bytes * V)) :
  al_get k' (al_del k l) = if bytes_eqb k' k then None else al_get k' l.
Proof. rewrite !al_get_aget, al_del_adel. apply aget_adel, bytes_eqb_spec. Qed.
Lemma al_get_app {V} k (l1 l2 : list (bytes * V)) :
  al_get k (l1 ++ l2) = match al_get k l1 with Some v => Some v | None => al_get k l2 end.
Proof. rewrite !al_get_aget. apply aget_app. Qed.
Lemma al_get_In {V} k (v : V) l : al_get k l = Some v -> In (k, v) l.
Proof. rewrite al_get_aget. apply aget_In, bytes_eqb_spec. Qed.
Lemma al_get_None {V} k (l : list (bytes * V)) : al_get k l = None <-> ~ In k (map fst l).
Proof. rewrite al_get_aget. apply aget_notin, bytes_eqb_spec. Qed.
Lemma In_al_get {V} k (v : V) l : NoDup (map fst l) -> In (k, v) l -> al_get k l = Some v.
Proof. rewrite al_get_aget. apply In_aget, bytes_eqb_spec. Qed.
Lemma al_get_perm {V} k (l l' : list (bytes * V)) :
  Permutation l l' -> NoDup (map fst l) -> al_get k l = al_get k l'.
Proof.
  intros P Hnd. assert (Hnd' : NoDup (map fst l')) by (now rewrite <- P).
  destruct (al_get k l') as [v|] eqn:E'.
  - apply In_al_get; [exact Hnd|]. rewrite P. now apply al_get_In.
  - destruct (al_get k l) as [v|] eqn:E; [|reflexivity].
    apply al_get_In in E. rewrite P in E. apply (In_al_get _ _ _ Hnd') in E. congruence.
Qed.
Lemma al_get_filter {V} (f : bytes * V -> bool) k l : NoDup (map fst l) ->
  al_get k (filter f l) = match al_get k l with Some v => if f (k, v) then Some v else None | None => None end.
Proof.
  induction l as [|[k0 v0] l IH]; cbn; [reflexivity|]. rewrite NoDup_cons_iff. intros [Hn Hnd].
  destruct (bytes_eqb_spec k k0) as [->|N].
  - destruct (f (k0, v0)); cbn; [now rewrite bytes_eqb_refl|].
    apply al_get_None in Hn. now rewrite IH, Hn.
  - destruct (f (k0, v0)); cbn; [destruct (bytes_eqb_spec k k0); [contradiction|]|]; now apply IH.
Qed.
Lemma al_put_keys {V} k (v : V) l :
  map fst (al_put k v l) = if al_has k l then map fst l else map fst l ++ [k].
Proof. unfold al_has. rewrite al_get_aget, al_put_aupd, aupd_keys. now destruct (aget bytes_eqb k l). Qed.
Lemma al_put_NoDup {V} k (v : V) l : NoDup (map fst l) -> NoDup (map fst (al_put k v l)).
Proof. rewrite al_put_aupd. apply aupd_NoDup, bytes_eqb_spec. Qed.
Lemma al_put_length {V} k (v : V) l :
  length (al_put k v l) = if al_has k l then length l else S (length l).
Proof.
  rewrite <- (map_length fst), al_put_keys.
  destruct (al_has k l); rewrite ?app_length, map_length; cbn; lia.
Qed.
Lemma al_del_length {V} k (l : list (bytes * V)) :
  NoDup (map fst l) -> al_has k l = true -> S (length (al_del k l)) = length l.
Proof.
  unfold al_has. rewrite al_get_aget, al_del_adel. intros Hnd H. apply (adel_length bytes_eqb_spec _ _ Hnd).
  now destruct (aget bytes_eqb k l).
Qed.

Lemma mem_set_add x a s : mem_bytes x (set_add a s) = bytes_eqb x a || mem_bytes x s.
Proof.
  unfold set_add. destruct (mem_bytes a s) eqn:E; [|reflexivity].
  destruct (bytes_eqb_spec x a) as [->|]; [exact E|reflexivity].
Qed.
Lemma mem_set_remove x a s : mem_bytes x (set_remove a s) = negb (bytes_eqb x a) && mem_bytes x s.
Proof. unfold set_remove. rewrite mem_bytes_filter. apply andb_comm. Qed.
Lemma set_add_NoDup a s : NoDup s -> NoDup (set_add a s).
Proof.
  intros H. unfold set_add. destruct (mem_bytes a s) eqn:E; [exact H|].
  constructor; [now apply mem_bytes_false|exact H].
Qed.
Lemma set_remove_NoDup a s : NoDup s -> NoDup (set_remove a s).
Proof. apply NoDup_filter. Qed.

Lemma mem_fast_and x sets :
  mem_bytes x (fast_and sets) = match sets with [] => false | _ => forallb (mem_bytes x) sets end.
Proof.
  destruct sets as [|s r]; [reflexivity|]. cbn [fast_and forallb]. revert s.
  induction r as [|a r IH]; cbn [fold_left forallb]; intros s; [now rewrite andb_true_r|].
  now rewrite IH, mem_ids_inter, andb_assoc.
Qed.
Lemma mem_fast_or x sets : mem_bytes x (fast_or sets) = existsb (mem_bytes x) sets.
Proof.
  enough (H : forall s, mem_bytes x (fold_left ids_union sets s) = mem_bytes x s || existsb (mem_bytes x) sets)
    by apply H.
  induction sets as [|a r IH]; cbn [fold_left existsb]; intros s; [now rewrite orb_false_r|].
  now rewrite IH, mem_ids_union, orb_assoc.
Qed.
Lemma fast_and_NoDup sets : (forall s, In s sets -> NoDup s) -> NoDup (fast_and sets).
Proof.
  destruct sets as [|s r]; cbn [fast_and]; [constructor|]. intros H.
  apply fold_left_inv; [intros; now apply NoDup_filter|apply H; now left].
Qed.
Lemma fast_or_NoDup sets : (forall s, In s sets -> NoDup s) -> NoDup (fast_or sets).
Proof. intros H. unfold fast_or. apply fold_left_inv; [intros; apply ids_union_NoDup; auto|constructor]. Qed.
Lemma mem_fold_set_add x l : forall s,
  mem_bytes x (fold_left (fun s id => set_add id s) l s) = mem_bytes x s || mem_bytes x l.
Proof.
  induction l as [|a l IH]; intros s; cbn [fold_left]; [now rewrite orb_false_r|].
  rewrite IH, mem_set_add, mem_cons. now destruct (mem_bytes x s), (bytes_eqb x a).
Qed.
Lemma fold_set_add_NoDup l : forall s, NoDup s -> NoDup (fold_left (fun s id => set_add id s) l s).
Proof. apply fold_left_inv. intros. now apply set_add_NoDup. Qed.

Lemma post_get_put t t' s p :
  post_get t (al_put t' s p) = if bytes_eqb t t' then s else post_get t p.
Proof. unfold post_get. rewrite al_get_put. now destruct (bytes_eqb t t'). Qed.

(* a conditional pointwise update of the sets of the keys of a table, as the
   three loops of processAnalysedDoc do *)
Definition upd_loop {V} (c : bytes -> bool) (f : idset -> idset) (l : list (bytes * V))
           (p : list (bytes * idset)) : list (bytes * idset) :=
  fold_left (fun p tf => if c (fst tf) then p else al_put (fst tf) (f (post_get (fst tf) p)) p) l p.

Lemma upd_loop_get {V} c f (l : list (bytes * V)) : NoDup (map fst l) -> forall p t,
  post_get t (upd_loop c f l p) =
  if al_has t l && negb (c t) then f (post_get t p) else post_get t p.
Proof.
  unfold upd_loop, al_has. induction l as [|[k v] l IH]; cbn; [reflexivity|].
  rewrite NoDup_cons_iff. intros [Hn Hnd] p t. rewrite IH by exact Hnd. apply al_get_None in Hn.
  destruct (bytes_eqb_spec t k) as [->|N].
  - rewrite Hn. cbn. destruct (c k); [reflexivity|]. now rewrite post_get_put, bytes_eqb_refl.
  - destruct (c k); [reflexivity|]. rewrite post_get_put. now destruct (bytes_eqb_spec t k).
Qed.
Lemma upd_loop_keys {V} c f (l : list (bytes * V)) : forall p,
  NoDup (map fst p) -> NoDup (map fst (upd_loop c f l p)).
Proof.
  apply (fold_left_inv (fun p => NoDup (map fst p))). intros p tf _ H.
  destruct (c (fst tf)); [exact H|now apply al_put_NoDup].
Qed.

(* the sets of the terms of [old] that are not in [new] lose id, then those of [new]
   that are not in [old] gain it: the update branch of processAnalysedDoc, and with
   one table or both empty its other three *)
Definition repost (id : uuid) (old new : freqtab) (p : list (bytes * idset)) : list (bytes * idset) :=
  upd_loop (fun t => al_has t old) (set_add id) new (upd_loop (fun t => al_has t new) (set_remove id) old p).

Lemma process_doc_post st id toks :
  ti_post (process_doc st (id, toks)) =
  repost id (match al_get id (ti_docs st) with Some (old, _) => old | None => [] end)
         (count_terms toks) (ti_post st).
Proof. unfold process_doc. destruct (al_get id (ti_docs st)) as [[old n]|], toks; reflexivity. Qed.

Section Repost.
  Variables (id : uuid) (old new : freqtab) (p : list (bytes * idset)).
  Hypotheses (Hold : NoDup (map fst old)) (Hnew : NoDup (map fst new)).

  (* if id is in the sets of exactly the terms of [old], it ends in those of exactly the terms of [new] *)
  Lemma repost_mem t x : mem_bytes id (post_get t p) = al_has t old ->
    mem_bytes x (post_get t (repost id old new p)) =
    if bytes_eqb x id then al_has t new else mem_bytes x (post_get t p).
  Proof.
    intros H. unfold repost. rewrite !upd_loop_get by assumption.
    destruct (al_has t new), (al_has t old) eqn:O; cbn [andb negb]; rewrite ?mem_set_add, ?mem_set_remove;
      destruct (bytes_eqb_spec x id) as [->|]; cbn; congruence.
  Qed.
  Lemma repost_NoDup t : NoDup (post_get t p) -> NoDup (post_get t (repost id old new p)).
  Proof.
    intros H. unfold repost. rewrite !upd_loop_get by assumption.
    repeat destruct (_ && _); auto using set_add_NoDup, set_remove_NoDup.
  Qed.
End Repost.

Lemma count_terms_acc toks : forall m t,
  tab_get t (fold_left (fun m t => al_put t (tab_get t m + 1) m) toks m) = tab_get t m + freq t toks.
Proof.
  unfold freq. induction toks as [|a toks IH]; cbn; intros m t; [lia|].
  rewrite IH. unfold tab_get at 1. rewrite al_get_put.
  destruct (bytes_eqb_spec t a) as [->|]; cbn; [|fold (tab_get t m)]; lia.
Qed.
Lemma count_terms_freq toks t : tab_get t (count_terms toks) = freq t toks.
Proof. apply count_terms_acc. Qed.
Lemma count_terms_has_acc toks : forall m t,
  al_has t (fold_left (fun m t => al_put t (tab_get t m + 1) m) toks m) = al_has t m || mem_bytes t toks.
Proof.
  induction toks as [|a toks IH]; cbn [fold_left]; intros m t; [now rewrite orb_false_r|].
  rewrite IH, mem_cons. unfold al_has at 1. rewrite al_get_put.
  destruct (bytes_eqb t a); [now rewrite orb_true_r|reflexivity].
Qed.
Lemma count_terms_has toks t : al_has t (count_terms toks) = mem_bytes t toks.
Proof. apply count_terms_has_acc. Qed.
Lemma count_terms_keys toks : NoDup (map fst (count_terms toks)).
Proof. apply (fold_left_inv (fun m => NoDup (map fst m))); [intros; now apply al_put_NoDup|constructor]. Qed.
Lemma freq_pos t toks : (0 <? freq t toks) = mem_bytes t toks.
Proof.
  unfold freq. induction toks as [|a toks IH]; cbn; [reflexivity|].
  destruct (bytes_eqb t a); cbn; [lia|]. exact IH.
Qed.

Record Inv (st : tindex) (tok : uuid -> list bytes) : Prop := mkInv {
  inv_mem : forall t id, mem_bytes id (post_get t (ti_post st)) = mem_bytes t (tok id);
  inv_nd : forall t, NoDup (post_get t (ti_post st));
  inv_pk : NoDup (map fst (ti_post st));
  inv_docs : forall id, al_get id (ti_docs st) =
               match tok id with [] => None | _ => Some (count_terms (tok id), N.of_nat (length (tok id))) end;
  inv_dk : NoDup (map fst (ti_docs st));
  inv_num : ti_num st = N.of_nat (length (ti_docs st)) }.

Lemma Inv_ext st tok tok' : (forall x, tok x = tok' x) -> Inv st tok -> Inv st tok'.
Proof.
  intros E [H1 H2 H3 H4 H5 H6]. constructor; auto.
  - intros t id. now rewrite <- E.
  - intros id. now rewrite <- E.
Qed.

Lemma Inv_empty : Inv ti_empty (fun _ => []).
Proof. constructor; cbn; auto; constructor. Qed.

(* whatever the tokens, the document table is written like a map and numDocs follows its size *)
Lemma process_doc_docs st id toks :
  NoDup (map fst (ti_docs st)) -> ti_num st = N.of_nat (length (ti_docs st)) ->
  let st' := process_doc st (id, toks) in
  (forall x, al_get x (ti_docs st') =
             if bytes_eqb x id
             then match toks with [] => None | _ => Some (count_terms toks, N.of_nat (length toks)) end
             else al_get x (ti_docs st)) /\
  NoDup (map fst (ti_docs st')) /\ ti_num st' = N.of_nat (length (ti_docs st')).
Proof.
  (* the document table is keyed by uuid = bytes: one name, for lia to see one length *)
  intros Hdk Hnum. cbv zeta. unfold process_doc. unfold uuid in *.
  assert (Hhas : al_has id (ti_docs st) = match al_get id (ti_docs st) with Some _ => true | None => false end)
    by reflexivity.
  destruct (al_get id (ti_docs st)) as [[old n]|] eqn:E, toks as [|a l]; cbn [ti_docs ti_num N.eqb N.of_nat length];
    repeat split; auto using al_put_NoDup.
  - intros x. apply al_get_del.
  - rewrite al_del_adel. now apply adel_NoDup.
  - pose proof (al_del_length id _ Hdk Hhas). unfold u64_dec. destruct (N.eqb_spec (ti_num st) 0); lia.
  - intros x. apply al_get_put.
  - now rewrite al_put_length, Hhas.
  - intros x. destruct (bytes_eqb_spec x id) as [->|]; [exact E|reflexivity].
  - intros x. apply al_get_put.
  - rewrite al_put_length, Hhas. unfold u64_inc. lia.
Qed.

Lemma process_doc_inv st tok id toks :
  Inv st tok -> Inv (process_doc st (id, toks)) (fun x => if bytes_eqb x id then toks else tok x).
Proof.
  intros [Hm Hn Hpk Hd Hdk Hnum].
  destruct (process_doc_docs st id toks Hdk Hnum) as (D1 & D2 & D3).
  assert (Hp : ti_post (process_doc st (id, toks)) =
               repost id (count_terms (tok id)) (count_terms toks) (ti_post st)).
  { rewrite process_doc_post, Hd. now destruct (tok id). }
  constructor; trivial; try rewrite Hp.
  - intros t x. rewrite repost_mem, count_terms_has; try apply count_terms_keys.
    + destruct (bytes_eqb x id); [reflexivity|apply Hm].
    + now rewrite count_terms_has.
  - intros t. apply repost_NoDup; auto using count_terms_keys.
  - now apply upd_loop_keys, upd_loop_keys.
  - intros x. rewrite D1. destruct (bytes_eqb x id); [reflexivity|apply Hd].
Qed.

Lemma flush_inv st tok : Inv st tok -> Inv (flush st) tok.
Proof.
  intros [Hm Hn Hpk Hd Hdk Hnum].
  assert (E : forall t, post_get t (ti_post (flush st)) = post_get t (ti_post st)).
  { intros t. unfold post_get. cbn [flush ti_post]. rewrite al_get_filter by exact Hpk.
    now destruct (al_get t (ti_post st)) as [[|x s]|]. }
  constructor; auto.
  - intros t id. now rewrite E.
  - intros t. now rewrite E.
  - now apply NoDup_map_filter.
Qed.
Lemma flush_no_empty st t s : In (t, s) (ti_post (flush st)) -> s <> [].
Proof. cbn. intros H. apply filter_In in H as [_ H]. now destruct s. Qed.

Lemma apply_batch_inv b : forall st tok, Inv st tok ->
  Inv (apply_batch st b) (fun x => match al_get x (rev b) with Some toks => toks | None => tok x end).
Proof.
  intros st tok H. apply flush_inv. revert st tok H.
  induction b as [|[id toks] b IH]; intros st tok H; [exact H|].
  eapply Inv_ext; [|apply IH, process_doc_inv, H].
  intros x. cbn [rev]. rewrite al_get_app. cbn.
  destruct (al_get x (rev b)); [reflexivity|]. now destruct (bytes_eqb x id).
Qed.

Lemma cur_tokens_snoc h b id :
  cur_tokens (h ++ [b]) id = match al_get id (rev b) with Some toks => toks | None => cur_tokens h id end.
Proof.
  unfold cur_tokens. rewrite concat_app. cbn [concat]. rewrite app_nil_r, rev_app_distr, al_get_app.
  now destruct (al_get id (rev b)).
Qed.
Lemma run_hist_inv h : Inv (run_hist h) (cur_tokens h).
Proof.
  induction h as [|b h IH] using rev_ind; [exact Inv_empty|].
  unfold run_hist. rewrite fold_left_app. eapply Inv_ext; [|apply apply_batch_inv, IH].
  intros x. symmetry. apply cur_tokens_snoc.
Qed.
(* every history ends with a flush (or is empty): no empty posting set is stored *)
Lemma run_hist_no_empty h t s : In (t, s) (ti_post (run_hist h)) -> s <> [].
Proof.
  destruct h as [|b h _] using rev_ind; [intros []|].
  unfold run_hist. rewrite fold_left_app. apply flush_no_empty.
Qed.

Lemma corpus_rep_ext c tok tok' : (forall x, tok x = tok' x) -> corpus_rep c tok -> corpus_rep c tok'.
Proof. intros E [H1 H2]. split; [exact H1|]. intros id toks. now rewrite <- E. Qed.
Lemma corpus_rep_mem c tok : corpus_rep c tok ->
  forall d, In d c -> tok (td_id d) = td_tokens d /\ td_tokens d <> [].
Proof. intros [_ Hc] [i toks] H. apply Hc in H. cbn. tauto. Qed.
Lemma corpus_rep_In_id c tok id : corpus_rep c tok -> (In id (map td_id c) <-> tok id <> []).
Proof.
  intros Hr. split.
  - intros H. apply in_map_iff in H as (d & <- & H).
    destruct (corpus_rep_mem _ _ Hr d H) as [H1 H2]. now rewrite H1.
  - intros H. apply (in_map td_id _ (mkTdoc id (tok id))). now apply Hr.
Qed.
Lemma find_doc_Some id c d : find_doc id c = Some d -> In d c /\ td_id d = id.
Proof.
  induction c as [|d0 c IH]; cbn; [discriminate|].
  destruct (bytes_eqb_spec id (td_id d0)); [intros [= <-]; auto|]. intros H. destruct (IH H). auto.
Qed.
Lemma find_doc_None id c : find_doc id c = None -> ~ In id (map td_id c).
Proof.
  induction c as [|d0 c IH]; cbn; [tauto|].
  destruct (bytes_eqb_spec id (td_id d0)); [discriminate|]. intros H [H1|H1]; [congruence|now apply IH].
Qed.
Lemma corpus_rep_find c tok id : corpus_rep c tok ->
  find_doc id c = match tok id with [] => None | _ => Some (mkTdoc id (tok id)) end.
Proof.
  intros Hr. destruct (find_doc id c) as [[i toks]|] eqn:F.
  - apply find_doc_Some in F as [Hin <-]. apply (corpus_rep_mem _ _ Hr) in Hin as [-> Hne]. now destruct toks.
  - apply find_doc_None in F. rewrite (corpus_rep_In_id _ _ id Hr) in F.
    destruct (tok id); [reflexivity|]. destruct F. discriminate.
Qed.

(* a corpus listed from a table with distinct keys: one document for every entry with tokens *)
Lemma corpus_rep_flat_map {A} (key : A -> uuid) (toks : A -> list bytes) (l : list A) tok :
  NoDup (map key l) ->
  (forall a, In a l -> tok (key a) = toks a) ->
  (forall id, tok id <> [] -> In id (map key l)) ->
  corpus_rep (flat_map (fun a => match toks a with [] => [] | _ => [mkTdoc (key a) (toks a)] end) l) tok.
Proof.
  intros Hnd Htok Hdom.
  assert (Hg : forall a d, In d (match toks a with [] => [] | _ => [mkTdoc (key a) (toks a)] end) <->
                           toks a <> [] /\ d = mkTdoc (key a) (toks a)).
  { intros a d. destruct (toks a); cbn; intuition congruence. }
  split.
  - replace (map td_id (flat_map _ l))
      with (map key (filter (fun a => match toks a with [] => false | _ => true end) l)).
    + now apply NoDup_map_filter.
    + clear. induction l as [|a l IH]; cbn; [reflexivity|]. rewrite map_app, <- IH. now destruct (toks a).
  - intros id t. rewrite in_flat_map. split.
    + intros (a & Ha & Hd). apply Hg in Hd as [Hne [= -> ->]]. rewrite (Htok a Ha). tauto.
    + intros [Hne <-]. destruct (proj1 (in_map_iff _ _ _) (Hdom id Hne)) as (a & <- & Ha).
      exists a. split; [exact Ha|]. apply Hg. rewrite <- (Htok a Ha). tauto.
Qed.

Lemma dedup_b_In x l : In x (dedup_b l) <-> In x l.
Proof. exact (dedup_by_In mem_bytes_In x l). Qed.
Lemma dedup_b_NoDup l : NoDup (dedup_b l).
Proof. exact (dedup_by_NoDup mem_bytes_In l). Qed.
Lemma dedup_b_nil l : dedup_b l = [] <-> l = [].
Proof.
  split; [|now intros ->]. destruct l as [|a l]; [reflexivity|]. intros H.
  pose proof (proj2 (dedup_b_In a (a :: l)) (or_introl eq_refl)) as Hin. now rewrite H in Hin.
Qed.

Lemma corpus_of_hist_rep h : corpus_rep (corpus_of_hist h) (cur_tokens h).
Proof.
  apply (corpus_rep_flat_map (fun id => id) (cur_tokens h)); rewrite ?map_id.
  - apply dedup_b_NoDup.
  - reflexivity.
  - intros id H. apply dedup_b_In. unfold cur_tokens in H.
    destruct (al_get id (rev (concat h))) eqn:E; [|congruence].
    apply al_get_In, in_rev, (in_map fst) in E. exact E.
Qed.

Definition doc_tokens (path : bytes) (tk : list (bytes * list bytes)) (d : doc) : list bytes :=
  match prop_value path d with
  | QFound (VStr s) => match tokens_of s tk with Some toks => toks | None => [] end
  | _ => []
  end.
Lemma corpus_Some path tk live : forall c, corpus path tk live = Some c ->
  c = flat_map (fun p => match doc_tokens path tk (snd p) with
                         | [] => []
                         | _ => [mkTdoc (fst p) (doc_tokens path tk (snd p))]
                         end) live.
Proof.
  induction live as [|[i d] live IH]; cbn [corpus flat_map fst snd]; intros c H; [now injection H|].
  destruct (corpus path tk live) as [rest|]; [|discriminate]. rewrite <- (IH rest eq_refl). unfold doc_tokens.
  destruct (prop_value path d) as [| |[]]; try (now injection H).
  destruct (tokens_of s tk) as [[|a l]|]; [| |discriminate]; now injection H.
Qed.
Lemma corpus_ids_sub path tk live : forall c, corpus path tk live = Some c ->
  forall id, In id (map td_id c) -> In id (map fst live).
Proof.
  intros c H id Hin. rewrite (corpus_Some _ _ _ _ H) in Hin.
  apply in_map_iff in Hin as (d & <- & Hd). apply in_flat_map in Hd as (p & Hp & Hd).
  destruct (doc_tokens path tk (snd p)); [destruct Hd|]. destruct Hd as [<-|[]]. exact (in_map fst _ _ Hp).
Qed.
Lemma st_get_al id (live : store) : st_get id live = al_get id live.
Proof. induction live as [|[i d] live IH]; cbn; [reflexivity|]. now rewrite IH. Qed.
Lemma corpus_live_rep path tk live c :
  NoDup (map fst live) -> corpus path tk live = Some c -> corpus_rep c (live_tokens path tk live).
Proof.
  intros Hnd H. rewrite (corpus_Some _ _ _ _ H).
  apply (corpus_rep_flat_map fst (fun p => doc_tokens path tk (snd p))); [exact Hnd| |];
    unfold live_tokens; intros x; rewrite st_get_al.
  - destruct x as [i d]. intros Hin. cbn [fst snd]. now rewrite (In_al_get i d live Hnd Hin).
  - intros Hne. destruct (al_get x live) eqn:E; [|congruence].
    apply al_get_In, (in_map fst) in E. exact E.
Qed.

Section Derived.
  Variables (st : tindex) (tok : uuid -> list bytes) (c : list tdoc).
  Hypothesis HI : Inv st tok.
  Hypothesis HR : corpus_rep c tok.

  Lemma post_members t id :
    In id (post_get t (ti_post st)) <-> exists d, In d c /\ td_id d = id /\ In t (td_tokens d).
  Proof.
    rewrite <- mem_bytes_In, (inv_mem _ _ HI), mem_bytes_In. split.
    - intros H. exists (mkTdoc id (tok id)). cbn. repeat split; auto.
      apply HR. split; [|reflexivity]. intros E. now rewrite E in H.
    - intros (d & Hd & <- & H). now rewrite (proj1 (corpus_rep_mem _ _ HR d Hd)).
  Qed.
  Lemma post_perm t :
    Permutation (post_get t (ti_post st)) (map td_id (filter (fun d => mem_bytes t (td_tokens d)) c)).
  Proof.
    apply NoDup_Permutation; [apply (inv_nd _ _ HI)|apply NoDup_map_filter, HR|].
    intros id. rewrite post_members, in_map_iff.
    split; intros (d & H); exists d; rewrite filter_In, mem_bytes_In in *; tauto.
  Qed.
  Lemma post_card t : N.of_nat (length (post_get t (ti_post st))) = doc_freq t c.
  Proof. unfold doc_freq. now rewrite (Permutation_length (post_perm t)), map_length. Qed.
  Lemma docs_derived id :
    al_get id (ti_docs st) =
    match find_doc id c with
    | Some d => Some (count_terms (td_tokens d), N.of_nat (length (td_tokens d)))
    | None => None
    end.
  Proof. rewrite (inv_docs _ _ HI), (corpus_rep_find _ _ id HR). now destruct (tok id). Qed.
  Lemma num_derived : ti_num st = N.of_nat (length c).
  Proof.
    rewrite (inv_num _ _ HI). f_equal.
    rewrite <- (map_length fst (ti_docs st)), <- (map_length td_id c).
    apply Permutation_length, NoDup_Permutation; [apply (inv_dk _ _ HI)|apply HR|].
    intros id. rewrite (corpus_rep_In_id _ _ id HR). pose proof (inv_docs _ _ HI id) as Hd.
    destruct (tok id).
    - apply al_get_None in Hd. tauto.
    - apply al_get_In, (in_map fst) in Hd. split; [discriminate|auto].
  Qed.
End Derived.

Lemma components st tok c uterms d :
  Inv st tok -> corpus_rep c tok -> In d c ->
  comps_of st uterms (td_id d) =
  Some (map (fun t => (freq t (td_tokens d), N.of_nat (length (td_tokens d)),
                       N.of_nat (length c), doc_freq t c)) uterms).
Proof.
  intros HI HR Hin. destruct (corpus_rep_mem _ _ HR d Hin) as [Ht Hne].
  unfold comps_of. rewrite (inv_docs _ _ HI), Ht. destruct (td_tokens d); [congruence|].
  f_equal. apply map_ext. intros t.
  now rewrite count_terms_freq, (num_derived st tok c HI HR), (post_card st tok c HI HR).
Qed.
Lemma score_ref_comps uterms c logs d :
  score_ref uterms c logs d =
  score_comps logs (map (fun t => (freq t (td_tokens d), N.of_nat (length (td_tokens d)),
                                   N.of_nat (length c), doc_freq t c)) uterms).
Proof.
  unfold score_ref, score_comps. induction uterms as [|t l IH]; cbn [map fold_right]; [reflexivity|].
  now rewrite IH.
Qed.

Section TermSets.
  Variables (st : tindex) (tok : uuid -> list bytes) (id : uuid).
  Hypothesis HI : Inv st tok.

  Lemma term_sets_all ut :
    forallb (mem_bytes id) (term_sets ut st) = forallb (fun t => mem_bytes t (tok id)) ut.
  Proof.
    unfold term_sets. induction ut as [|t ut IH]; cbn [map forallb]; [|rewrite IH, (inv_mem _ _ HI)]; reflexivity.
  Qed.
  Lemma term_sets_any ut :
    existsb (mem_bytes id) (term_sets ut st) = existsb (fun t => mem_bytes t (tok id)) ut.
  Proof.
    unfold term_sets. induction ut as [|t ut IH]; cbn [map existsb]; [|rewrite IH, (inv_mem _ _ HI)]; reflexivity.
  Qed.

  Lemma matchM_mem op terms filt :
    mem_bytes id (matchM op terms filt st) =
    text_matches op (dedup_b terms) (mkTdoc id (tok id)) &&
    match filt with None => true | Some f => mem_bytes id f end.
  Proof.
    unfold matchM, text_matches. cbn [td_tokens]. generalize (dedup_b terms) as ut. intros ut.
    destruct filt; rewrite ?mem_ids_inter, ?andb_true_r; [f_equal|];
      (destruct (op =? OP_ALL); rewrite ?mem_fast_and, ?mem_fast_or, ?term_sets_all, ?term_sets_any;
       now destruct ut).
  Qed.
End TermSets.
Lemma matchM_NoDup st tok op terms filt : Inv st tok -> NoDup (matchM op terms filt st).
Proof.
  intros HI. unfold matchM.
  assert (HF : forall s, In s (term_sets (dedup_b terms) st) -> NoDup s).
  { intros s Hs. apply in_map_iff in Hs as (t & <- & _). apply (inv_nd _ _ HI). }
  assert (H : NoDup (if op =? OP_ALL then fast_and (term_sets (dedup_b terms) st)
                     else fast_or (term_sets (dedup_b terms) st))).
  { destruct (op =? OP_ALL); [now apply fast_and_NoDup|now apply fast_or_NoDup]. }
  destruct filt; [now apply NoDup_filter|exact H].
Qed.
Lemma text_matches_no_tokens op ut id : text_matches op ut (mkTdoc id []) = false.
Proof.
  unfold text_matches. cbn [td_tokens]. destruct ut as [|a l]; [reflexivity|].
  destruct (op =? OP_ALL); cbn; [reflexivity|].
  induction l as [|b l IH]; cbn; [reflexivity|exact IH].
Qed.

Lemma match_exact st tok c op terms filt allowed :
  Inv st tok -> corpus_rep c tok -> allowed_ok filt allowed c ->
  NoDup (matchM op terms filt st) /\
  Permutation (matchM op terms filt st)
    (map td_id (filter (fun d => text_matches op (dedup_b terms) d && mem_bytes (td_id d) allowed) c)).
Proof.
  intros HI HR HA. split; [now apply (matchM_NoDup st tok)|].
  apply NoDup_Permutation; [now apply (matchM_NoDup st tok)|apply NoDup_map_filter, HR|].
  intros id. rewrite <- mem_bytes_In, (matchM_mem st tok) by exact HI. rewrite in_map_iff. setoid_rewrite filter_In.
  assert (HA' : forall d, In d c -> mem_bytes (td_id d) allowed =
                                    match filt with None => true | Some f => mem_bytes (td_id d) f end).
  { intros d Hd. destruct filt; [apply HA|now apply HA]. }
  split.
  - intros H. exists (mkTdoc id (tok id)). split; [reflexivity|].
    assert (Hin : In (mkTdoc id (tok id)) c).
    { apply HR. split; [|reflexivity]. intros E. now rewrite E, text_matches_no_tokens in H. }
    now rewrite (HA' _ Hin).
  - intros ([i toks] & <- & Hin & H). rewrite <- (HA' _ Hin).
    now rewrite (proj1 (corpus_rep_mem _ _ HR _ Hin)).
Qed.

Lemma matchM_zero_terms op filt st : matchM op [] filt st = [].
Proof. unfold matchM. cbn. now destruct (op =? OP_ALL), filt. Qed.

Lemma searchM_rows srt op terms filt limit st :
  snd (searchM srt op terms filt limit st) = firstn (N.to_nat limit) (srt (matchM op terms filt st)).
Proof.
  unfold searchM.
  destruct (N.ltb_spec limit (N.of_nat (length (srt (matchM op terms filt st))))); cbn [snd]; [reflexivity|].
  symmetry. apply firstn_all2. lia.
Qed.
Lemma searchM_set srt op terms filt limit st :
  (forall l, Permutation (srt l) l) ->
  forall x, In x (fst (searchM srt op terms filt limit st)) <-> In x (snd (searchM srt op terms filt limit st)).
Proof.
  intros Hp x. unfold searchM.
  destruct (limit <? N.of_nat (length (srt (matchM op terms filt st)))); cbn [fst snd].
  - now rewrite <- !mem_bytes_In, mem_fold_set_add.
  - now rewrite Hp.
Qed.

Lemma score_ge_trans score : Relations_1.Transitive (score_ge score).
Proof. intros a b c H1 H2. exact (Qle_trans _ _ _ H2 H1). Qed.

(* a sort satisfying the hypothesis of the top-k theorems exists (insertion sort) *)
Fixpoint ins_desc (score : uuid -> Q) (x : uuid) (l : list uuid) : list uuid :=
  match l with
  | [] => [x]
  | y :: r => if Qle_bool (score y) (score x) then x :: l else y :: ins_desc score x r
  end.
Definition isort_desc (score : uuid -> Q) (l : list uuid) : list uuid := fold_right (ins_desc score) [] l.
Lemma ins_desc_perm score x l : Permutation (ins_desc score x l) (x :: l).
Proof.
  induction l as [|y r IH]; cbn; [reflexivity|]. destruct (Qle_bool (score y) (score x)); [reflexivity|].
  rewrite IH. apply perm_swap.
Qed.
Lemma ins_desc_sorted score x l : Sorted (score_ge score) l -> Sorted (score_ge score) (ins_desc score x l).
Proof.
  induction l as [|y r IH]; cbn; intros H; [repeat constructor|].
  destruct (Qle_bool (score y) (score x)) eqn:E.
  - constructor; [exact H|]. constructor. now apply Qle_bool_iff.
  - apply Sorted_inv in H as [Hs Hh]. constructor; [now apply IH|].
    apply Qle_bool_false, Qlt_le_weak in E. fold (score_ge score y x) in E.
    destruct r as [|z r]; cbn; [now constructor|].
    destruct (Qle_bool (score z) (score x)); constructor; [exact E|]. now inversion Hh.
Qed.
Lemma isort_desc_ok score l : Permutation (isort_desc score l) l /\ Sorted (score_ge score) (isort_desc score l).
Proof.
  induction l as [|x l [IH1 IH2]]; cbn; [split; constructor|]. split.
  - rewrite ins_desc_perm. now constructor.
  - now apply ins_desc_sorted.
Qed.

Local Open Scope Q_scope.

Lemma Qabs'_eq x : Qabs' x = Qabs x.
Proof. now destruct x as [[|p|p] d]. Qed.
Lemma Qclose_rel_sound tol a b : Qclose_rel tol a b = true -> close_rel tol a b.
Proof.
  unfold Qclose_rel, close_rel. rewrite !Qabs'_eq. intros H. apply Qle_bool_iff in H.
  destruct (Qle_bool 1 (Qabs b)) eqn:E.
  - apply Qle_bool_iff in E. now left.
  - apply Qle_bool_false, Qlt_le_weak in E. right. now rewrite Qmult_1_r in H.
Qed.

Lemma sorted_q_Sorted l : sorted_q l = true -> Sorted Qle l.
Proof.
  induction l as [|x [|y l] IH]; cbn [sorted_q]; [repeat constructor..|].
  intros H. apply andb_true_iff in H as [H1 H2]. constructor; [now apply IH|].
  constructor. now apply Qle_bool_iff.
Qed.
Lemma sorted_q_rev_desc ss : sorted_q (rev ss) = true -> StronglySorted (fun a b => b <= a) ss.
Proof.
  intros H. apply sorted_q_Sorted, Sorted_StronglySorted, StronglySorted_rev in H; [|exact Qle_trans].
  now rewrite rev_involutive in H.
Qed.
Lemma slack_mono a b : a <= b -> a + (1 # 10000) * (1 + Qabs a) <= b + (1 # 10000) * (1 + Qabs b).
Proof. intros H. apply (Qabs_case a); intros Ha; apply (Qabs_case b); intros Hb; lra. Qed.

(* one step of the cascade of checks *)
Lemma if_negb_0 (b : bool) (p : positive) (r : N) : (if negb b then N.pos p else r) = 0%N -> b = true /\ r = 0%N.
Proof. now destruct b. Qed.

Lemma text_code_sound limit w cands rows :
  text_code limit w cands rows = 0%N -> text_rows_spec limit w cands rows.
Proof.
  unfold text_code.
  (* the candidates' scores are looked up by a local copy of aget *)
  change (fix f (id : uuid) (l : list (uuid * Q)) {struct l} : option Q :=
            match l with [] => None | (k, v) :: r => if bytes_eqb id k then Some v else f id r end)
    with (@aget uuid Q bytes_eqb).
  cbv zeta. set (ss := flat_map (fun r => match row_score r with Some s => [s] | None => [] end) rows).
  (* the second check (every row is a candidate) is implied by the fourth *)
  intros (C1 & (_ & (C3 & (C4 & (C5 & (C6 & (C7 & (C8 & (C9 & _)%if_negb_0)%if_negb_0)%if_negb_0)%if_negb_0
            )%if_negb_0)%if_negb_0)%if_negb_0)%if_negb_0)%if_negb_0.
  rewrite forallb_forall in C3, C4, C7, C8, C9.
  apply sorted_q_rev_desc in C6.
  repeat split.
  - now apply nodup_ids_NoDup.
  - intros r Hr. specialize (C3 r Hr). specialize (C4 r Hr). unfold row_score in C4.
    destruct (@aget uuid Q bytes_eqb (r_id r) cands) as [s|] eqn:F; [|discriminate].
    destruct (r_score r) as [b|] eqn:S; [|discriminate].
    exists s, b. cbn in C4. repeat split; auto using (aget_In bytes_eqb_spec), Qclose_rel_sound.
  - apply N.eqb_eq in C5. lia.
  - exists ss. repeat split; [|exact C6|].
    + subst ss. clear - C3. induction rows as [|r rows IH]; cbn [map flat_map]; [reflexivity|].
      assert (C := C3 r (or_introl eq_refl)).
      destruct (row_score r) eqn:E; [|unfold row_score in E; destruct (r_score r); discriminate].
      cbn [app map]. f_equal. apply IH. intros r' Hr'. apply C3. now right.
    + intros c Hc Hn x Hx. specialize (C7 c Hc). apply orb_true_iff in C7 as [C7|C7].
      * now apply mem_bytes_In in C7.
      * apply Qle_bool_iff in C7. rewrite Qabs'_eq in C7.
        eapply Qle_trans; [exact C7|]. apply slack_mono. exact (StronglySorted_last (fun a b => b <= a) _ _ Qle_refl C6 x Hx).
  - intros r x Hr Hx. specialize (C8 r Hr). rewrite Hx in C8. now apply Qclose_rel_sound.
  - intros r Hr. specialize (C9 r Hr). now destruct (r_dist r).
Qed.
