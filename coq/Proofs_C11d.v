(* Proofs_C11d.v -- C11: the concrete runs behind the statements the faithful
   model REFUTES, and behind the limitation of the package.  Each run is
   evaluated once; the statements are read off the resulting state. *)
From Coq Require Import List Arith Bool ZArith Lia PeanoNat.
From Semadb Require Import Model_C11.
Import ListNotations.

Definition rep (n : nat) (l : label) := repeat l n.

Lemma step_finished : forall fixed safe limit st t,
  ph (txs st t) = PIdle -> prog (txs st t) = [] -> step fixed safe limit st t = None.
Proof. intros fixed safe limit st t Hp Hr. unfold step. now rewrite Hp, Hr. Qed.

Lemma stuck_run : forall fixed safe limit st, (forall t, step fixed safe limit st t = None) ->
  forall ts, run fixed safe limit (map LT ts) st = st.
Proof.
  intros fixed safe limit st Hs. induction ts as [|t ts IH]; simpl; auto.
  unfold next. simpl. rewrite Hs. exact IH.
Qed.

(* Cross writers: A,B against B,A.  Six steps take a transaction through its first
   access (manager section, createFn + register + lock, callback begin, end,
   checkAndPrune, return); the next step of each is the lookup of the second name,
   then both wait for the other's lock. *)
Definition cw_progs : list (list op) :=
  [[OWith 0 false OK; OWith 1 false OK; OCommit false];
   [OWith 1 false OK; OWith 0 false OK; OCommit false]].
Definition cw_sched : list label := rep 6 (LT 0) ++ rep 6 (LT 1) ++ [LT 0; LT 1].
Definition cw_st : state := Eval vm_compute in run true true (-1) cw_sched (init cw_progs).
Lemma cw_st_eq : run true true (-1) cw_sched (init cw_progs) = cw_st.
Proof. vm_compute. reflexivity. Qed.
Lemma cw_stuck : forall t, step true true (-1) cw_st t = None.
Proof. intros [|[|t]]; [reflexivity|reflexivity|]. apply step_finished; destruct t; reflexivity. Qed.

(* With after Commit, fixed = false: the writing With on the new name 1 takes a write
   lock nobody releases; transaction 1, a writer of that name, waits for ever.
   pc_st' is the current tree on the same programs and schedule, run to the end. *)
Definition pc_progs : list (list op) :=
  [[OWith 0 false OK; OCommit false; OWith 1 false OK]; [OWith 1 false OK; OCommit false]].
Definition pc_sched : list label := rep 6 (LT 0) ++ [LT 0] ++ rep 6 (LT 0) ++ [LT 1; LT 1].
Definition pc_st : state := Eval vm_compute in run false false (-1) pc_sched (init pc_progs).
Lemma pc_st_eq : pc_st = run false false (-1) pc_sched (init pc_progs).
Proof. vm_compute. reflexivity. Qed.
Lemma pc_stuck : forall t, step false false (-1) pc_st t = None.
Proof. intros [|[|t]]; [reflexivity|reflexivity|]. apply step_finished; destruct t; reflexivity. Qed.

Definition pc_st' : state := Eval vm_compute in run true true (-1) (pc_sched ++ rep 8 (LT 1)) (init pc_progs).
Lemma pc_st'_eq : pc_st' = run true true (-1) (pc_sched ++ rep 8 (LT 1)) (init pc_progs).
Proof. vm_compute. reflexivity. Qed.
Lemma pc_released : locks_released pc_st'.
Proof.
  split; [reflexivity|]. intros n e Hl. change (mmap pc_st') with [(1, 1); (0, 0)] in Hl. unfold lookup in Hl.
  destruct (Nat.eqb 1 n); [|destruct (Nat.eqb 0 n); [|discriminate Hl]]; injection Hl as <-; split; reflexivity.
Qed.

(* Finding F6: W writes A (element 0, registered, write-locked); the entry is
   released; R registers a new element 1 built from the storage version before W's
   commit; W commits (version 1); R2 is handed element 1: stale, and it stays in
   the map. *)
Definition ev_progs : list (list op) :=
  [[OWith 0 false OK; OCommit false]; [OWith 0 true OK; OCommit false]; [OWith 0 true OK; OCommit false]].
Definition ev_sched : list label :=
  rep 3 (LT 0) ++ [LDel 0] ++ rep 7 (LT 1) ++ rep 4 (LT 0) ++ rep 4 (LT 2).
Definition ev_st : state := Eval vm_compute in run false false (-1) ev_sched (init ev_progs).
Lemma ev_st_eq : run false false (-1) ev_sched (init ev_progs) = ev_st.
Proof. vm_compute. reflexivity. Qed.

(* the run of the witness is not clean: the Release removes a write-locked entry *)
Lemma ev_not_clean : ~ clean false false (-1) ev_sched (init ev_progs).
Proof.
  unfold ev_sched. simpl. intros (_ & _ & _ & ([Kp _] & _)).
  destruct (Kp 0 0) as [X|X]; [vm_compute; reflexivity|left; vm_compute; discriminate| |]; vm_compute in X; discriminate X.
Qed.

(* A write-locked entry leaves the map without any environment step: T0's writing
   callback fails, T1 writes A on a new element 1, T0's Commit(true) deletes the NAME
   A (element 1's entry), T2 registers element 2 and reads it, T1's second writing
   access finds element 2 under A, has A in its written caches, takes no lock. *)
Definition ex_progs : list (list op) :=
  [[OWith 0 false CbFail; OCommit true];
   [OWith 0 false OK; OWith 0 false OK; OCommit false];
   [OWith 0 true OK; OCommit false]].
Definition ex_sched : list label :=
  rep 3 (LT 0) ++ rep 4 (LT 0) ++ rep 3 (LT 1) ++ [LT 0] ++ rep 3 (LT 2) ++ rep 3 (LT 1) ++ rep 4 (LT 1).
Definition ex_st : state := Eval vm_compute in run false false (-1) ex_sched (init ex_progs).
Lemma ex_st_eq : run false false (-1) ex_sched (init ex_progs) = ex_st.
Proof. vm_compute. reflexivity. Qed.
Lemma ex_overlap : in_cb_writing ex_st 1 2 /\ in_cb ex_st 2 2.
Proof. split; eexists _, _; repeat split. Qed.

(* The scrapped check and the call of the callback are two steps: reader 1 has passed
   the check when the callback of reader 2 on the same element fails (both hold read
   locks; `scrapped` is written under a read lock). *)
Definition sr_progs : list (list op) :=
  [[OWith 0 true OK; OCommit false]; [OWith 0 true OK; OCommit false]; [OWith 0 true CbFail; OCommit true]].
Definition sr_sched : list label := rep 8 (LT 0) ++ rep 3 (LT 1) ++ rep 5 (LT 2).
Definition sr_st : state := Eval vm_compute in run true true (-1) sr_sched (init sr_progs).
Lemma sr_st_eq : sr_st = run true true (-1) sr_sched (init sr_progs).
Proof. vm_compute. reflexivity. Qed.

(* fixed = true, safe = false: a READ access that arrives after the Commit of its own
   transaction finds the name in the transaction's written caches and uses the shared
   element without any lock, here while transaction 1 writes it. *)
Definition lr_progs : list (list op) :=
  [[OWith 0 false OK; OCommit false; OWith 0 true OK]; [OWith 0 false OK; OCommit false]].
Definition lr_sched : list label := rep 6 (LT 0) ++ [LT 0] ++ rep 5 (LT 1) ++ rep 4 (LT 0).
Definition lr_st : state := Eval vm_compute in run true false (-1) lr_sched (init lr_progs).
Lemma lr_st_eq : run true false (-1) lr_sched (init lr_progs) = lr_st.
Proof. vm_compute. reflexivity. Qed.
Lemma lr_overlap : in_cb lr_st 0 0 /\ in_cb_writing lr_st 1 0.
Proof. split; eexists _, _; repeat split. Qed.
