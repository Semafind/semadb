(* Props_C12.v -- property C12: shard loading, idle unloading and collection deletion are
   safe and deadlock-free.  The lemmas behind the theorems are in Proofs_C12.v / Proofs_C12b.v.
   All theorems quantify over ARBITRARY schedules, any number of request threads, shard
   directories and deletions ([reachable] = any execution from any initial state
   [init ndirs specs]).  [fixed = true] is the current lock order of the idle routine,
   [fixed = false] the pinned one (mu kept while taking shardLock). *)
From Coq Require Import List Arith Bool Lia.
From Semadb Require Import Model_C12 Proofs_C12 Proofs_C12b.
Import ListNotations.

(* 1. Safety, for both lock orders: in every reachable state a callback runs only on an entry
   whose shard is open, on which the thread holds a read lock and whose directory exists; no
   shard file has two open handles; a directory with an open handle exists. *)
Theorem c12_safety : forall fixed st, reachable fixed st -> safe st.
Proof. exact safety. Qed.
Print Assumptions c12_safety.

(* 1b. The same as a statement about the removal step: when a deletion is about to
   os.RemoveAll a shard directory, no handle is open on it and no callback runs on it. *)
Theorem c12_remove_only_unused : forall fixed st n d r,
  reachable fixed st -> T st n = CDel (DRemove (d :: r)) ->
  d_handles (D st d) = 0 /\ forall m e, ~ uses (T st m) d e.
Proof.
  intros fixed st n d r Hr HT. pose proof (inv_reachable _ _ Hr) as Hinv.
  assert (Hs : d_store (D st d) = None) by (apply (i_rem_unmapped _ Hinv n); rewrite HT; reflexivity).
  split; [rewrite (i_handles _ Hinv d), Hs; reflexivity|].
  intros m e Hu. destruct (inv_safe st Hinv) as [Hsafe _]. destruct (Hsafe m d e Hu) as (Ho & _ & Hd & _).
  pose proof (i_mapped _ Hinv e) as Hq. unfold tied in Hq. rewrite Ho, orb_true_r, Hd in Hq.
  specialize (Hq eq_refl). congruence.
Qed.
Print Assumptions c12_remove_only_unused.

(* 2. The pinned lock order deadlocks: a reachable state with unfinished threads in which no
   thread can move (idle routine holds mu and waits for shardLock, the deletion holds
   shardLock and waits for mu). *)
Theorem c12_deadlock_refuted :
  exists st, reachable false st /\ unfinished st /\ forall t, step false st t = None.
Proof.
  eapply (reached false 1 deadlock_specs deadlock_sched); [repeat constructor | vm_compute; reflexivity |].
  apply deadlockedb_sound. vm_compute. reflexivity.
Qed.
Print Assumptions c12_deadlock_refuted.

(* 3. Deadlock freedom of the current lock order: in every reachable state with an unfinished
   thread (a call that has not returned, or an idle routine that has not exited) some thread
   has an enabled step. *)
Theorem c12_progress : forall st, reachable true st -> unfinished st -> exists t, enabled true st t.
Proof. exact progress. Qed.
Print Assumptions c12_progress.

(* 4. Termination: every step strictly decreases [measure]; so every execution from st has at
   most [measure st] steps, whatever the schedule ... *)
Theorem c12_terminates : forall fixed st sched st',
  exec fixed st sched st' -> length sched + measure st' <= measure st.
Proof. induction 1; simpl; try lia. pose proof (step_measure _ _ _ _ H). lia. Qed.
Print Assumptions c12_terminates.

(* ... and (current lock order) an execution that cannot be extended has finished every call
   and every idle routine.  With 3 and 4: under any schedule that keeps running enabled
   threads every shard-manager call returns. *)
Theorem c12_maximal_runs_finish : forall st,
  reachable true st -> (forall t, step true st t = None) -> forall t, finished st t = true.
Proof.
  intros st Hr Hn t. destruct (finished st t) eqn:Hf; auto.
  destruct (progress st Hr (ex_intro _ t Hf)) as [t' Ht']. destruct Ht'. apply Hn.
Qed.
Print Assumptions c12_maximal_runs_finish.

(* 5. Afterwards new requests can load shards again: in a reachable state where all calls have
   returned and no idle routine is in the middle of unloading, a new request on any directory
   runs alone to completion in 8 steps, its callback runs (result ok) and no lock stays held. *)
Theorem c12_reload_after : forall st d,
  reachable true st -> clients_done st -> idle_quiet st -> d < length (dirs st) ->
  let n := length (thr st) in
  exists st', exec true (add_req st d) (repeat (TC n) 8) st' /\
              T st' n = CReq d (RDone ROk) /\ locks_free st'.
Proof. exact reload_after. Qed.
Print Assumptions c12_reload_after.

(* 6. A request that obtained an entry whose shard is closed (it stands before RLock) never
   runs its callback, under any continuation, and if it returns, it returns the clean
   "already closed" error -- for both lock orders. *)
Theorem c12_stale_entry_clean_error : forall fixed st n d e sched,
  reachable fixed st -> T st n = CReq d (RRLock e) -> e_open (E st e) = false ->
  let st' := run fixed sched st in
  (exists p, T st' n = CReq d p /\ stale_pc e p = true) /\
  (forall e', T st' n <> CReq d (RBegin e') /\ T st' n <> CReq d (REnd e')) /\
  (forall r, T st' n = CReq d (RDone r) -> r = RClosed).
Proof. exact stale_entry_clean_error. Qed.
Print Assumptions c12_stale_entry_clean_error.

(* Examples: the hypotheses are satisfiable by non-trivial states *)

(* two requests inside their callbacks on the same shard while the idle routine has announced
   mu.Lock(): a reachable state to which c12_safety applies non-trivially *)
Example ex_safety_state :
  exists st, reachable true st /\ uses (T st 0) 0 0 /\ uses (T st 1) 0 0 /\ e_idle (E st 0) = ILockPend
             /\ e_rd (E st 0) = [1; 0] /\ d_handles (D st 0) = 1.
Proof.
  eapply (reached true 1 [SReq 0; SReq 0]
            [TC 0; TC 0; TC 0; TC 0; TC 0; TC 0; TC 1; TC 1; TC 1; TC 1; TC 1; TC 1; TI 0; TI 0]);
    [repeat constructor | vm_compute; reflexivity | vm_compute; repeat split; auto].
Qed.

(* a deletion about to remove the directory of a shard that was loaded: c12_remove_only_unused *)
Example ex_remove_state :
  exists st, reachable true st /\ T st 1 = CDel (DRemove [0]) /\ d_exists (D st 0) = true.
Proof.
  eapply (reached true 1 [SReq 0; SDel]
            [TC 0; TC 0; TC 0; TC 0; TC 0; TC 0; TC 0; TC 0; TC 1; TC 1; TC 1; TC 1; TC 1; TC 1; TC 1; TC 1; TC 1]);
    [repeat constructor | vm_compute; reflexivity | vm_compute; auto].
Qed.

(* progress: a reachable state with blocked threads (deletion waits for mu held by the idle
   routine; a request waits for shardLock) in which the idle routine can move *)
Example ex_progress_state :
  exists st, reachable true st /\ unfinished st /\ step true st (TC 1) = None /\ step true st (TC 2) = None
             /\ enabled true st (TI 0).
Proof.
  eapply (reached true 1 [SReq 0; SDel; SReq 0]
            [TC 0; TC 0; TC 0; TC 0; TC 0; TC 0; TC 0; TC 0; TI 0; TI 0; TI 0; TC 1; TC 1; TC 1]);
    [repeat constructor | vm_compute; reflexivity |].
  split; [exists (TC 1); reflexivity|]. split; [reflexivity|]. split; [reflexivity|]. discriminate.
Qed.

(* reload: all calls returned, the idle routine of the loaded shard still waits (entry is
   reused), and a state where everything has been unloaded (fresh load) *)
Example ex_reload_reuse :
  exists st, reachable true st /\ clients_done st /\ idle_quiet st /\ 0 < length (dirs st)
             /\ d_store (D st 0) = Some 0.
Proof.
  eapply (reached true 1 [SReq 0] [TC 0; TC 0; TC 0; TC 0; TC 0; TC 0; TC 0; TC 0]);
    [repeat constructor | vm_compute; reflexivity |]. repeat split; auto.
  - intros [|[|n]]; reflexivity.
  - intros [|[|e]]; vm_compute; auto.
Qed.

Example ex_reload_fresh :
  exists st, reachable true st /\ clients_done st /\ idle_quiet st /\ 0 < length (dirs st)
             /\ d_store (D st 0) = None /\ length (ents st) = 1.
Proof.
  eapply (reached true 1 [SReq 0; SDel] ([TC 0; TC 0; TC 0; TC 0; TC 0; TC 0; TC 0; TC 0] ++ repeat (TC 1) 12));
    [repeat constructor | vm_compute; reflexivity |]. repeat split; auto.
  - intros [|[|[|n]]]; reflexivity.
  - intros [|[|e]]; vm_compute; auto.
Qed.

(* stale entry: the idle routine has closed the shard while the request stands before RLock *)
Example ex_stale_state :
  exists st, reachable true st /\ T st 0 = CReq 0 (RRLock 0) /\ e_open (E st 0) = false.
Proof.
  eapply (reached true 1 [SReq 0] [TC 0; TC 0; TC 0; TI 0; TI 0; TI 0; TI 0; TI 0]);
    [repeat constructor | vm_compute; reflexivity | vm_compute; auto].
Qed.

(* the measure of a small initial state: a bound on the length of every execution from it *)
Example ex_measure : measure (init 2 [SReq 0; SReq 1; SDel]) = 18 + 18 + 28.
Proof. reflexivity. Qed.

(* what the theorems above presuppose of a callback: that it returns without waiting for another
   DoWithShard on the same entry. Thread 0 is inside its callback (REnd), the idle timer has fired and the
   routine has announced itself on the entry lock (ILockPend); thread 1 stands for a DoWithShard the callback
   of thread 0 makes itself (the same goroutine) and waits for. Thread 1 cannot take the read lock (a writer
   is announced), the routine cannot take the write lock (thread 0 holds a read lock), and the only thread
   that can move is thread 0 -- which, waiting for thread 1, does not: a callback that re-enters never returns
   once the timer has fired. The run executes the five real callbacks of the node under exactly this schedule
   (Run_C12.CRpc). *)
Definition nested_sched : list tid := [TC 0; TC 0; TC 0; TC 0; TC 0; TC 0; TI 0; TI 0; TC 1; TC 1; TC 1].
Theorem c12_reentrant_callback_blocks :
  let st := run true nested_sched (init 1 [SReq 0; SReq 0]) in
  T st 0 = CReq 0 (REnd 0) /\ T st 1 = CReq 0 (RRLock 0) /\
  e_idle (E st 0) = ILockPend /\ e_w (E st 0) = Some (TI 0, false) /\ e_rd (E st 0) = [0] /\
  enabledb true st (TC 1) = false /\ enabledb true st (TI 0) = false /\
  forall t, enabledb true st t = true -> In t (all_tids st) -> t = TC 0.
Proof.
  cbv zeta. repeat split; try (vm_compute; reflexivity).
  intros t He Hin.
  assert (Hall : all_tids (run true nested_sched (init 1 [SReq 0; SReq 0])) = [TC 0; TC 1; TI 0]) by (vm_compute; reflexivity).
  rewrite Hall in Hin. destruct Hin as [H|[H|[H|[]]]]; subst t; [reflexivity| |]; vm_compute in He; discriminate.
Qed.
Print Assumptions c12_reentrant_callback_blocks.
