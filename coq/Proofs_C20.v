(* Proofs_C20.v -- lemmas for property C20.  Both kernels are one interpreter run on two parameter
   sets, so they share one proof.  Under params_ok the block loop and the tail loop keep
     (sum of the accumulator lanes) + termsum (what is left of the two slices)
   constant, and the reduction sequence, run on lists of lane names instead of numbers, is seen
   to add every accumulator lane exactly once.
   Bit vectors: a bitwise operation on packed words is the bit operation position by position,
   so a popcount of it counts positions. *)
From Coq Require Import List NArith ZArith Bool Lia.
From Semadb Require Import ListFacts AsmParams Model_C20.
Import ListNotations.
Open Scope Z_scope.

Lemma Nmem_In : forall x l, Nmem x l = true <-> In x l.
Proof. exact (mem_by_In N.eqb_eq). Qed.
Lemma Nmem_false : forall x l, Nmem x l = false <-> ~ In x l.
Proof. intros x l. rewrite <- Nmem_In. destruct (Nmem x l); split; congruence. Qed.
Lemma Nnodup_NoDup : forall l, Nnodup l = true -> NoDup l.
Proof. intros l. apply (nodup_by_NoDup Nmem_In). Qed.
Lemma Nlist_eqb_eq : forall a b, Nlist_eqb a b = true -> a = b.
Proof.
  induction a as [|x a IH]; destruct b as [|y b]; simpl; intros H; try discriminate; auto.
  apply andb_true_iff in H as [H1 H2]. apply N.eqb_eq in H1. f_equal; auto.
Qed.
Lemma Ndisjoint_spec : forall a b, Ndisjoint a b = true -> forall x, In x a -> ~ In x b.
Proof.
  unfold Ndisjoint. intros a b H x Hx. rewrite forallb_forall in H. specialize (H x Hx).
  apply negb_true_iff, Nmem_false in H. exact H.
Qed.

Lemma zsum_app : forall a b, zsum (a ++ b) = zsum a + zsum b.
Proof. induction a; simpl; intros; [reflexivity|rewrite IHa; lia]. Qed.
Lemma zip2_length : forall {A B C} (f : A -> B -> C) a b, length a = length b -> length (zip2 f a b) = length a.
Proof. induction a; destruct b; simpl; intros; try discriminate; auto. Qed.
Lemma zsum_zip2_add : forall a b, length a = length b -> zsum (zip2 Z.add a b) = zsum a + zsum b.
Proof. induction a; destruct b; simpl; intros H; try discriminate; [reflexivity|]. rewrite IHa by lia. lia. Qed.
Lemma zsum_mul_dot : forall x y, zsum (zip2 Z.mul x y) = dot x y.
Proof. induction x; destruct y; simpl; auto. rewrite IHx. reflexivity. Qed.
Lemma zsum_sub_sq : forall x y, zsum (zip2 Z.mul (zip2 Z.sub x y) (zip2 Z.sub x y)) = sqeuclid x y.
Proof. induction x; destruct y; simpl; auto. rewrite IHx. reflexivity. Qed.
Lemma zsum_repeat0 : forall n, zsum (repeat 0 n) = 0.
Proof. induction n; simpl; auto. Qed.

Lemma termsum_nil_l : forall s ys, termsum s [] ys = 0.
Proof. destruct s; reflexivity. Qed.
Lemma termsum_cons : forall s x y xs ys,
  termsum s (x :: xs) (y :: ys) = (if s then (x - y) * (x - y) else x * y) + termsum s xs ys.
Proof. destruct s; reflexivity. Qed.
Lemma termsum_app : forall s a b c d, length a = length c ->
  termsum s (a ++ b) (c ++ d) = termsum s a c + termsum s b d.
Proof.
  intros s. induction a as [|x a IH]; intros b [|y c] d H; try discriminate; simpl app.
  - rewrite termsum_nil_l. reflexivity.
  - injection H as H. rewrite !termsum_cons, IH by exact H. lia.
Qed.
Lemma termsum_split : forall s k xs ys, (k <= length xs)%nat -> (k <= length ys)%nat ->
  termsum s xs ys = termsum s (firstn k xs) (firstn k ys) + termsum s (skipn k xs) (skipn k ys).
Proof.
  intros s k xs ys Hx Hy. rewrite <- termsum_app by (rewrite !firstn_length; lia).
  rewrite !firstn_skipn. reflexivity.
Qed.

Lemma take_ok : forall n l, (n <= length l)%nat -> take n l = Some (firstn n l).
Proof.
  induction n; intros l H; simpl; [reflexivity|]. destruct l as [|x r]; simpl in *; [lia|].
  rewrite IHn by lia. reflexivity.
Qed.
Lemma take_short : forall n l, (length l < n)%nat -> take n l = None.
Proof.
  induction n; intros l H; simpl; [lia|]. destruct l as [|x r]; simpl in *; [reflexivity|].
  rewrite IHn by lia. reflexivity.
Qed.

Lemma upd_eq : forall {A} (rf : N -> A) r v, upd rf r v r = v.
Proof. intros. unfold upd. rewrite N.eqb_refl. reflexivity. Qed.
Lemma upd_neq : forall {A} (rf : N -> A) r v r', r' <> r -> upd rf r v r' = rf r'.
Proof. intros. unfold upd. apply N.eqb_neq in H. rewrite H. reflexivity. Qed.

Definition wf (rf : regfile) : Prop := forall r, length (rf r) = 8%nat.
Lemma wf_upd : forall rf r v, wf rf -> length v = 8%nat -> wf (upd rf r v).
Proof. intros rf r v H Hv r'. unfold upd. destruct (r' =? r)%N; auto. Qed.

Lemma vfma_spec : forall acc a b, length acc = 8%nat -> length a = 8%nat -> length b = 8%nat ->
  length (vfma acc a b) = 8%nat /\ zsum (vfma acc a b) = zsum acc + zsum (zip2 Z.mul a b).
Proof.
  intros acc a b Hc Ha Hb. unfold vfma.
  assert (L : length (zip2 Z.mul a b) = 8%nat) by (rewrite zip2_length; congruence).
  split; [rewrite zip2_length | apply zsum_zip2_add]; congruence.
Qed.

Definition total (accs : list N) (rf : regfile) : Z := zsum (map (fun a => zsum (rf a)) accs).
Lemma total_ext : forall accs rf rf', (forall a, In a accs -> rf' a = rf a) -> total accs rf' = total accs rf.
Proof.
  unfold total. induction accs as [|a accs IH]; simpl; intros rf rf' H; [reflexivity|].
  rewrite H by auto. rewrite (IH rf rf') by auto. reflexivity.
Qed.
Lemma total_change : forall accs rf rf' a, NoDup accs -> In a accs ->
  (forall r, In r accs -> r <> a -> rf' r = rf r) ->
  total accs rf' = total accs rf - zsum (rf a) + zsum (rf' a).
Proof.
  induction accs as [|b accs IH]; intros rf rf' a Hnd Hin H; [destruct Hin|].
  inversion_clear Hnd as [|? ? Hb Hnd']. change (total (b :: accs) ?f) with (zsum (f b) + total accs f).
  destruct (N.eq_dec b a) as [->|Hne].
  - rewrite (total_ext accs rf rf'); [lia|]. intros r Hr. apply H; [right; exact Hr | congruence].
  - destruct Hin as [->|Hin]; [congruence|].
    rewrite (IH rf rf' a) by auto with datatypes. rewrite (H b) by auto with datatypes. lia.
Qed.

Lemma vzero_len : length vzero = 8%nat.
Proof. reflexivity. Qed.
Lemma zero_regs_eq : forall rs rf r, zero_regs rs rf r = if Nmem r rs then vzero else rf r.
Proof.
  unfold zero_regs. induction rs as [|a rs IH]; intros rf r; simpl; [reflexivity|].
  rewrite IH. unfold upd. destruct (r =? a)%N; destruct (Nmem r rs); reflexivity.
Qed.
Lemma zero_regs_wf : forall rs rf, wf rf -> wf (zero_regs rs rf).
Proof. intros rs rf H r. rewrite zero_regs_eq. destruct (Nmem r rs); [apply vzero_len | apply H]. Qed.
Lemma total_zero : forall accs rs rf, (forall a, In a accs -> In a rs) -> total accs (zero_regs rs rf) = 0.
Proof.
  intros accs rs rf H. unfold total. induction accs as [|a accs IH]; simpl; [reflexivity|].
  rewrite zero_regs_eq, (proj2 (Nmem_In a rs)) by auto with datatypes.
  rewrite IH by auto with datatypes. reflexivity.
Qed.

Definition chunk (mem : list Z) (off : N) : vec := firstn 8 (skipn (N.to_nat (off / 4)) mem).
(* a full register can be read at byte offset off *)
Definition fits (mem : list Z) (off : N) : Prop :=
  (off mod 4 = 0)%N /\ (N.to_nat (off / 4) + 8 <= length mem)%nat.

Lemma chunk_len : forall mem off, fits mem off -> length (chunk mem off) = 8%nat.
Proof. intros mem off [_ H]. unfold chunk. rewrite firstn_length, skipn_length. lia. Qed.
Lemma vload_ok : forall mem off, fits mem off -> vload 8 mem off = Some (chunk mem off).
Proof.
  intros mem off [Hm Hl]. unfold vload, chunk. rewrite Hm. apply take_ok. rewrite skipn_length. change (N.to_nat 8) with 8%nat. lia.
Qed.
Lemma vload_short : forall mem off, (length mem < N.to_nat (off / 4) + 8)%nat -> vload 8 mem off = None.
Proof.
  intros mem off Hl. unfold vload. destruct (off mod 4 =? 0)%N; [|reflexivity].
  apply take_short. rewrite skipn_length. change (N.to_nat 8) with 8%nat. lia.
Qed.

Lemma do_loads_spec : forall mem loads, NoDup (map snd loads) ->
  (forall p, In p loads -> fits mem (fst p)) -> forall rf, wf rf ->
  exists rf', do_loads 8 loads mem rf = Some rf' /\ wf rf'
    /\ (forall p, In p loads -> rf' (snd p) = chunk mem (fst p))
    /\ (forall r, ~ In r (map snd loads) -> rf' r = rf r).
Proof.
  intros mem. induction loads as [|[off r] ls IH]; intros Hnd H rf Hw; simpl.
  - exists rf. repeat split; auto. intros p [].
  - inversion_clear Hnd as [|? ? Hr Hnd']. pose proof (H (off, r) (or_introl eq_refl)) as Hf.
    rewrite (vload_ok mem off Hf).
    destruct (IH Hnd' (fun p Hp => H p (or_intror Hp)) (upd rf r (chunk mem off)))
      as (rf' & E & Hw' & L & Fr); [apply wf_upd; [exact Hw | apply chunk_len, Hf]|].
    exists rf'. split; [exact E|]. split; [exact Hw'|]. split.
    + intros p [<-|Hp]; [|auto]. simpl. rewrite (Fr r Hr). apply upd_eq.
    + intros r' Hr'. rewrite Fr by tauto. apply upd_neq. intros ->. tauto.
Qed.

Lemma exec_line_spec : forall sub py rf l, wf rf -> fits py (l_yoff l) ->
  tmp_matches sub l = true -> (forall t, l_tmp l = Some t -> t <> l_acc l) ->
  exists rf', exec_line sub 8 py rf l = Some rf' /\ wf rf'
    /\ zsum (rf' (l_acc l)) = zsum (rf (l_acc l)) + termsum sub (rf (l_xr l)) (chunk py (l_yoff l))
    /\ (forall r, r <> l_acc l -> l_tmp l <> Some r -> rf' r = rf r).
Proof.
  intros sub py rf l Hw Hf Htm Ht. unfold exec_line. rewrite (vload_ok py _ Hf).
  pose proof (chunk_len py _ Hf) as Ly. set (y := chunk py (l_yoff l)) in *.
  unfold tmp_matches in Htm. destruct (l_tmp l) as [t|]; destruct sub; try discriminate.
  - specialize (Ht t eq_refl). set (d := zip2 Z.sub (rf (l_xr l)) y).
    assert (Ld : length d = 8%nat) by (unfold d; rewrite zip2_length; rewrite Hw; auto).
    rewrite (upd_neq rf t d (l_acc l)) by congruence. rewrite upd_eq.
    destruct (vfma_spec (rf (l_acc l)) d d (Hw _) Ld Ld) as [Lv Sv].
    eexists. split; [reflexivity|]. split; [apply wf_upd; [apply wf_upd|]; assumption|]. split.
    + rewrite upd_eq, Sv. unfold d. rewrite zsum_sub_sq. reflexivity.
    + intros r Hr Hr'. rewrite !upd_neq; congruence.
  - destruct (vfma_spec (rf (l_acc l)) (rf (l_xr l)) y (Hw _) (Hw _) Ly) as [Lv Sv].
    eexists. split; [reflexivity|]. split; [apply wf_upd; assumption|]. split.
    + rewrite upd_eq, Sv, zsum_mul_dot. reflexivity.
    + intros r Hr _. apply upd_neq, Hr.
Qed.

Lemma flow_ok_cons : forall l ls, flow_ok (l :: ls) = true ->
  (forall l', In l' ls -> l_tmp l <> Some (l_xr l')) /\ flow_ok ls = true.
Proof.
  intros l ls H. simpl in H. apply andb_true_iff in H as [H1 H2]. split; [|exact H2].
  intros l' Hl' E. rewrite E in H1. apply negb_true_iff, Nmem_false in H1. apply H1, in_map, Hl'.
Qed.

Definition line_term (sub : bool) (px py : list Z) (l : line) : Z :=
  termsum sub (chunk px (l_yoff l)) (chunk py (l_yoff l)).

Lemma do_lines_spec : forall sub accs px py, NoDup accs -> forall lines rf, wf rf ->
  (forall l, In l lines ->
     In (l_acc l) accs /\ ~ In (l_xr l) accs /\ tmp_matches sub l = true
     /\ (forall t, l_tmp l = Some t -> ~ In t accs) /\ fits py (l_yoff l)) ->
  (forall l, In l lines -> rf (l_xr l) = chunk px (l_yoff l)) ->
  flow_ok lines = true ->
  exists rf', do_lines sub 8 lines py rf = Some rf' /\ wf rf'
    /\ total accs rf' = total accs rf + zsum (map (line_term sub px py) lines).
Proof.
  intros sub accs px py Hnd. induction lines as [|l ls IH]; intros rf Hw H Hx Hflow; simpl.
  - exists rf. repeat split; auto. lia.
  - destruct (H l (or_introl eq_refl)) as (Ha & _ & Htm & Ht & Hf).
    apply flow_ok_cons in Hflow as [Hfl Hflow].
    destruct (exec_line_spec sub py rf l Hw Hf Htm) as (rf1 & E1 & Hw1 & S1 & Fr1).
    { intros t Et ->. exact (Ht _ Et Ha). }
    rewrite E1.
    destruct (IH rf1 Hw1 (fun l' Hl' => H l' (or_intror Hl'))) as (rf' & E & Hw' & T); [|exact Hflow|].
    { (* the x register of a later line is neither this line's accumulator nor its temporary *)
      intros l' Hl'. rewrite Fr1; [exact (Hx l' (or_intror Hl')) | | exact (Hfl l' Hl')].
      intros E'. apply (H l' (or_intror Hl')). rewrite E'. exact Ha. }
    exists rf'. split; [exact E|]. split; [exact Hw'|].
    rewrite T, (total_change accs rf rf1 (l_acc l) Hnd Ha), S1, (Hx l (or_introl eq_refl));
      [unfold line_term; lia|].
    intros r Hr Hne. apply Fr1; [exact Hne|]. intros Et. exact (Ht _ Et Hr).
Qed.

(* byte offset of float32 element s *)
Definition quad (s : nat) : N := 4 * N.of_nat s.
Lemma quad_div : forall s, N.to_nat (quad s / 4) = s.
Proof. intros s. unfold quad. rewrite N.mul_comm, N.div_mul by discriminate. apply Nat2N.id. Qed.
Lemma quad_mod : forall s, (quad s mod 4 = 0)%N.
Proof. intros s. unfold quad. rewrite N.mul_comm. apply N.mod_mul. discriminate. Qed.
Lemma quad_fits : forall mem s, (s + 8 <= length mem)%nat -> fits mem (quad s).
Proof. intros mem s H. split; [apply quad_mod | rewrite quad_div; exact H]. Qed.
Lemma advance_quad : forall mem s, advance mem (quad s) = Some (skipn s mem).
Proof. intros mem s. unfold advance. rewrite quad_mod, quad_div. reflexivity. Qed.

Lemma offsets_seq : forall k s, offsets k (quad (8 * s)) 32 = map (fun i => quad (8 * i)) (seq s k).
Proof.
  induction k; intros s; [reflexivity|]. cbn [offsets seq map]. f_equal. rewrite <- IHk. f_equal. unfold quad. lia.
Qed.

Lemma lines_sum : forall sub px py lines s,
  map l_yoff lines = map (fun i => quad (8 * i)) (seq s (length lines)) ->
  (8 * (s + length lines) <= length px)%nat -> (8 * (s + length lines) <= length py)%nat ->
  zsum (map (line_term sub px py) lines)
  = termsum sub (firstn (8 * length lines) (skipn (8 * s) px)) (firstn (8 * length lines) (skipn (8 * s) py)).
Proof.
  intros sub px py. induction lines as [|l ls IH]; intros s Ho Hx Hy; cbn [length] in *.
  - simpl. rewrite termsum_nil_l. reflexivity.
  - cbn [map seq] in Ho. injection Ho as Hl Ho.
    cbn [map zsum fold_right]. fold (zsum (map (line_term sub px py) ls)).
    rewrite (IH (S s)) by (assumption || lia).
    replace (8 * S (length ls))%nat with (8 + 8 * length ls)%nat by lia.
    rewrite !firstn_add, termsum_app by (rewrite !firstn_length, !skipn_length; lia).
    rewrite <- !skipn_add. replace (8 * s + 8)%nat with (8 * S s)%nat by lia.
    unfold line_term, chunk. rewrite Hl, quad_div. reflexivity.
Qed.

Lemma pair_lists : forall {A B C} (f : A -> B) (g : A -> C) ls (L : list (B * C)),
  map f ls = map fst L -> map g ls = map snd L -> L = map (fun l => (f l, g l)) ls.
Proof.
  induction ls; destruct L as [|[a1 b1] L]; simpl; intros H1 H2; try discriminate; [reflexivity|].
  injection H1 as -> H1. injection H2 as -> H2. f_equal. auto.
Qed.

Lemma tmps_of_in : forall ls l t, In l ls -> l_tmp l = Some t -> In t (tmps_of ls).
Proof. intros ls l t Hl Ht. unfold tmps_of. apply in_flat_map. exists l. rewrite Ht. simpl; auto. Qed.

Definition nblock (P : kparams) : nat := N.to_nat (k_block_items P).

(* what block_ok says, as propositions *)
Record block_facts (P : kparams) : Prop := {
  bf_lanes : k_lanes P = 8%N;
  bf_items : nblock P = (8 * length (k_lines P))%nat;
  bf_pos : (0 < nblock P)%nat;
  bf_sx : k_stride_x P = quad (nblock P);
  bf_sy : k_stride_y P = quad (nblock P);
  bf_dec : k_count_dec P = k_block_items P;
  bf_loads : k_loads P = map (fun l => (l_yoff l, l_xr l)) (k_lines P);
  bf_yoffs : map l_yoff (k_lines P) = map (fun i => quad (8 * i)) (seq 0 (length (k_lines P)));
  bf_xregs : NoDup (map snd (k_loads P));
  bf_accs : NoDup (k_accs P);
  bf_acc_x : forall a, In a (k_accs P) -> ~ In a (map snd (k_loads P));
  bf_acc_t : forall a, In a (k_accs P) -> ~ In a (tmps_of (k_lines P));
  bf_flow : flow_ok (k_lines P) = true;
  bf_tmp : forall l, In l (k_lines P) -> tmp_matches (k_sub P) l = true;
  bf_zeroed : forall a, In a (k_accs P) -> In a (k_zeroed P) }.

Lemma block_ok_facts : forall P, block_ok P = true -> block_facts P.
Proof.
  intros P H. unfold block_ok, k_unroll in H.
  destruct (andb_prop _ _ H) as [[[[[[[[[[[[[[[C0 C1]%andb_prop C2]%andb_prop C3]%andb_prop C4]%andb_prop C5]%andb_prop
    C6]%andb_prop C7]%andb_prop C8]%andb_prop C9]%andb_prop C10]%andb_prop C11]%andb_prop C12]%andb_prop C13]%andb_prop
    C14]%andb_prop C15].
  apply N.eqb_eq in C0, C2, C3, C4, C5. apply N.ltb_lt in C1. apply Nlist_eqb_eq in C6, C7, C8.
  rewrite C0 in *.
  assert (HB : nblock P = (8 * length (k_lines P))%nat) by (unfold nblock; lia).
  assert (HQ : (4 * k_block_items P)%N = quad (nblock P)) by (unfold quad, nblock; now rewrite N2Nat.id).
  rewrite forallb_forall in C14, C15.
  constructor; try assumption; try congruence.
  - lia.
  - apply pair_lists; assumption.
  - rewrite C7, C6. exact (offsets_seq _ 0).
  - apply Nnodup_NoDup, C9.
  - apply Nnodup_NoDup, C10.
  - apply Ndisjoint_spec, C11.
  - apply Ndisjoint_spec, C12.
  - intros a Ha. apply Nmem_In, C15, Ha.
Qed.

Lemma line_fits : forall P mem l, block_facts P -> (nblock P <= length mem)%nat -> In l (k_lines P) ->
  fits mem (l_yoff l).
Proof.
  intros P mem l F Hm Hl. apply (in_map l_yoff) in Hl. rewrite (bf_yoffs P F) in Hl.
  apply in_map_iff in Hl as (i & <- & Hi). apply in_seq in Hi. rewrite (bf_items P F) in Hm.
  apply quad_fits. lia.
Qed.

Lemma block_step_spec : forall P rf px py,
  block_facts P -> wf rf -> (nblock P <= length px)%nat -> (nblock P <= length py)%nat ->
  exists rf', block_step P rf px py = Some (rf', skipn (nblock P) px, skipn (nblock P) py) /\ wf rf'
    /\ total (k_accs P) rf' = total (k_accs P) rf + termsum (k_sub P) (firstn (nblock P) px) (firstn (nblock P) py).
Proof.
  intros P rf px py F Hw Hx Hy. unfold block_step. rewrite (bf_lanes P F).
  destruct (do_loads_spec px (k_loads P) (bf_xregs P F)) with (rf := rf) as (rf1 & E1 & Hw1 & L1 & Fr1);
    [|exact Hw|].
  { rewrite (bf_loads P F). intros p Hp. apply in_map_iff in Hp as (l & <- & Hl). exact (line_fits P px l F Hx Hl). }
  rewrite E1.
  assert (Hld : forall l, In l (k_lines P) -> In (l_yoff l, l_xr l) (k_loads P)).
  { intros l Hl. rewrite (bf_loads P F). exact (in_map (fun l => (l_yoff l, l_xr l)) _ _ Hl). }
  destruct (do_lines_spec (k_sub P) (k_accs P) px py (bf_accs P F) (k_lines P) rf1 Hw1) as (rf2 & E2 & Hw2 & T2);
    [| |exact (bf_flow P F)|].
  { intros l Hl. split; [exact (in_map l_acc _ _ Hl)|].
    split; [intros Hin; exact (bf_acc_x P F _ Hin (in_map snd _ _ (Hld l Hl)))|].
    split; [exact (bf_tmp P F l Hl)|]. split; [intros t Et Hin; exact (bf_acc_t P F _ Hin (tmps_of_in _ l t Hl Et))|].
    exact (line_fits P py l F Hy Hl). }
  { intros l Hl. exact (L1 _ (Hld l Hl)). }
  rewrite E2, (bf_sx P F), (bf_sy P F), !advance_quad.
  exists rf2. split; [reflexivity|]. split; [exact Hw2|].
  rewrite T2, (total_ext (k_accs P) rf rf1) by (intros a Ha; apply Fr1, (bf_acc_x P F a Ha)).
  rewrite (bf_items P F) in *.
  rewrite (lines_sum _ _ _ _ 0%nat (bf_yoffs P F)) by assumption. reflexivity.
Qed.

Lemma do_lines_bound : forall sub lines py rf rf',
  do_lines sub 8 lines py rf = Some rf' ->
  forall l, In l lines -> (N.to_nat (l_yoff l / 4) + 8 <= length py)%nat.
Proof.
  intros sub. induction lines as [|l0 ls IH]; intros py rf rf' H l Hl; [destruct Hl|].
  simpl in H. destruct (exec_line sub 8 py rf l0) as [rf1|] eqn:E; [|discriminate].
  destruct Hl as [->|Hl]; [|eapply IH; eauto].
  unfold exec_line in E.
  destruct (Nat.le_gt_cases (N.to_nat (l_yoff l / 4) + 8) (length py)) as [Hle|Hgt]; [exact Hle|].
  rewrite vload_short in E by exact Hgt. discriminate.
Qed.

(* a block that runs has read its last register from ys *)
Lemma block_step_bound : forall P rf px py r, block_facts P ->
  block_step P rf px py = Some r -> (nblock P <= length py)%nat.
Proof.
  intros P rf px py r F H. unfold block_step in H. rewrite (bf_lanes P F) in H.
  destruct (do_loads 8 (k_loads P) px rf) as [rf1|]; [|discriminate].
  destruct (do_lines (k_sub P) 8 (k_lines P) py rf1) as [rf2|] eqn:E; [|discriminate].
  pose proof (bf_pos P F) as Hpos. rewrite (bf_items P F) in *.
  assert (Hin : In (quad (8 * (length (k_lines P) - 1))) (map l_yoff (k_lines P))).
  { rewrite (bf_yoffs P F). apply (in_map (fun i => quad (8 * i))), in_seq. lia. }
  apply in_map_iff in Hin as (l & El & Hl).
  pose proof (do_lines_bound _ _ _ _ _ E l Hl) as Hb. rewrite El, quad_div in Hb. lia.
Qed.

(* the count comes from xs alone; ys is read as far as xs goes *)
Lemma block_loop_spec : forall P, block_facts P -> forall fuel rf px py, (length px < fuel)%nat -> wf rf ->
  match block_loop P fuel rf px py (Z.of_nat (length px)) with
  | None => (length py < length px)%nat
  | Some (rf', px', py', n) =>
      n = Z.of_nat (length px') /\ ((length px <= length py)%nat <-> (length px' <= length py')%nat) /\ wf rf'
      /\ (length px' <= length px)%nat
      /\ total (k_accs P) rf' + termsum (k_sub P) px' py' = total (k_accs P) rf + termsum (k_sub P) px py
  end.
Proof.
  intros P F. pose proof (bf_pos P F) as Hpos.
  induction fuel as [|f IH]; intros rf px py Hfuel Hw; [lia|].
  cbn [block_loop]. rewrite (bf_dec P F).
  destruct (Z.ltb_spec (Z.of_nat (length px)) (Z.of_N (k_block_items P))) as [Hlt|Hge]; [repeat split; auto|].
  assert (Hx : (nblock P <= length px)%nat) by (unfold nblock; lia).
  destruct (block_step P rf px py) as [[[rf1 px1] py1]|] eqn:E.
  - pose proof (block_step_bound P rf px py _ F E) as Hy.
    destruct (block_step_spec P rf px py F Hw Hx Hy) as (rf1' & E' & Hw1 & T1).
    rewrite E in E'. injection E' as -> -> ->.
    replace (Z.of_nat (length px) - Z.of_N (k_block_items P)) with (Z.of_nat (length (skipn (nblock P) px)))
      by (rewrite skipn_length; unfold nblock; lia).
    specialize (IH rf1' (skipn (nblock P) px) (skipn (nblock P) py)).
    destruct (block_loop P f rf1' _ _ _) as [[[[rf' px'] py'] n]|]; rewrite !skipn_length in IH.
    + destruct IH as (En & L & Hw' & L' & T'); [lia | exact Hw1 |].
      rewrite T', T1, (termsum_split (k_sub P) (nblock P) px py Hx Hy). repeat split; try tauto; lia.
    + specialize (IH ltac:(lia) Hw1). lia.
  - destruct (Nat.le_gt_cases (nblock P) (length py)) as [Hy|Hy]; [|lia].
    destruct (block_step_spec P rf px py F Hw Hx Hy) as (rf1 & E' & _). congruence.
Qed.

(* the tail accumulates in lane 0 of its own register; lanes 1..3 of it survive a scalar operation *)
Definition tsum (P : kparams) (rf : regfile) : Z := zsum (firstn 4 (rf (l_acc (k_tail_line P)))).

Lemma sc_merge_props : forall src z, length src = 8%nat ->
  length (sc_merge src z) = 8%nat /\ lane0 (sc_merge src z) = z
  /\ zsum (firstn 4 (sc_merge src z)) = zsum (firstn 4 src) - lane0 src + z.
Proof.
  intros src z H. do 9 (destruct src as [|? src]; try discriminate).
  unfold sc_merge, lane0. simpl. repeat split; lia.
Qed.

(* what tail_ok says, as propositions *)
Record tail_facts (P : kparams) : Prop := {
  tf_cmp : k_tail_cmp P = 0%N; tf_dec : k_tail_dec P = 1%N;
  tf_sx : k_tail_stride_x P = 4%N; tf_sy : k_tail_stride_y P = 4%N;
  tf_lo : fst (k_tail_load P) = 0%N; tf_yo : l_yoff (k_tail_line P) = 0%N;
  tf_lr : snd (k_tail_load P) = l_xr (k_tail_line P);
  tf_tm : tmp_matches (k_sub P) (k_tail_line P) = true;
  tf_acc : ~ In (l_acc (k_tail_line P)) (k_accs P);
  tf_xr : ~ In (l_xr (k_tail_line P)) (k_accs P);
  tf_tmp : forall t, l_tmp (k_tail_line P) = Some t -> ~ In t (k_accs P) /\ t <> l_acc (k_tail_line P);
  tf_ax : l_acc (k_tail_line P) <> l_xr (k_tail_line P);
  tf_z : In (l_acc (k_tail_line P)) (k_tail_zeroed P);
  tf_zd : forall r, In r (k_tail_zeroed P) -> ~ In r (k_accs P) }.

Lemma tail_ok_facts : forall P, tail_ok P = true -> tail_facts P.
Proof.
  intros P H. unfold tail_ok in H.
  destruct (andb_prop _ _ H) as [[[[[[[[[[[[[[K1 K2]%andb_prop K3]%andb_prop K4]%andb_prop K5]%andb_prop K6]%andb_prop
    K7]%andb_prop K8]%andb_prop K9]%andb_prop K10]%andb_prop K11]%andb_prop K12]%andb_prop K13]%andb_prop K14]%andb_prop
    K15].
  apply N.eqb_eq in K1, K2, K3, K4, K5, K6, K7.
  apply negb_true_iff in K9, K10, K12, K13. apply Nmem_false in K9, K10, K13. apply N.eqb_neq in K12.
  constructor; try assumption.
  - intros t Ht. unfold tmps_of in K11, K13. simpl in K11, K13. rewrite Ht in K11, K13.
    split; [apply (Ndisjoint_spec _ _ K11) | intros ->; apply K13]; left; reflexivity.
  - apply Nmem_In, K14.
  - apply Ndisjoint_spec, K15.
Qed.

(* the scalar accumulate: lane 0 of the tail accumulator grows by z; rf0 is the state after the
   scalar load (and subtraction), which touch neither that register nor a block accumulator *)
Lemma tail_acc_spec : forall P rf rf0 z, tail_facts P -> wf rf0 ->
  (forall r, In r (k_accs P) \/ r = l_acc (k_tail_line P) -> rf0 r = rf r) ->
  let a := l_acc (k_tail_line P) in
  let rf' := upd rf0 a (sc_merge (rf0 a) (lane0 (rf0 a) + z)) in
  wf rf' /\ total (k_accs P) rf' = total (k_accs P) rf /\ tsum P rf' = tsum P rf + z.
Proof.
  intros P rf rf0 z F Hw0 Fr a rf'.
  destruct (sc_merge_props (rf0 a) (lane0 (rf0 a) + z) (Hw0 a)) as (N1 & _ & N3).
  split; [apply wf_upd; assumption|]. split.
  - apply total_ext. intros r Hr. unfold rf'. rewrite upd_neq; [apply Fr; left; exact Hr|].
    intros ->. exact (tf_acc P F Hr).
  - unfold tsum. fold a. unfold rf'. rewrite upd_eq, N3, (Fr a) by (right; reflexivity). lia.
Qed.

Lemma tail_step_spec : forall P rf x y px py, tail_facts P -> wf rf ->
  exists rf', tail_step P rf (x :: px) (y :: py) = Some (rf', px, py) /\ wf rf'
    /\ total (k_accs P) rf' = total (k_accs P) rf
    /\ tsum P rf' = tsum P rf + termsum (k_sub P) [x] [y].
Proof.
  intros P rf x y px py F Hw. unfold tail_step.
  pose proof (tf_lo P F) as E0. pose proof (tf_lr P F) as E1.
  destruct (k_tail_load P) as [xoff lr]. simpl in E0, E1. subst xoff lr.
  rewrite (tf_yo P F), (tf_sx P F), (tf_sy P F). unfold vload, advance. simpl.
  set (rf0 := upd rf (l_xr (k_tail_line P)) (sc_load x)).
  assert (Hw0 : wf rf0) by (apply wf_upd; [exact Hw | reflexivity]).
  assert (Fr0 : forall r, In r (k_accs P) \/ r = l_acc (k_tail_line P) -> rf0 r = rf r).
  { intros r Hr. apply upd_neq. intros ->.
    destruct Hr as [Hr|Hr]; [exact (tf_xr P F Hr) | exact (tf_ax P F (eq_sym Hr))]. }
  assert (Ex : lane0 (rf0 (l_xr (k_tail_line P))) = x) by (unfold rf0; rewrite upd_eq; reflexivity).
  pose proof (tf_tm P F) as Htm. unfold tmp_matches in Htm.
  destruct (l_tmp (k_tail_line P)) as [t|] eqn:Et; destruct (k_sub P); try discriminate.
  - destruct (tf_tmp P F t Et) as [Hta Htacc].
    set (xr := rf0 (l_xr (k_tail_line P))) in *.
    destruct (sc_merge_props xr (lane0 xr - y) (Hw0 _)) as (M1 & M2 & _).
    set (rf1 := upd rf0 t (sc_merge xr (lane0 xr - y))).
    destruct (tail_acc_spec P rf rf1 (lane0 (rf1 t) * lane0 (rf1 t)) F) as (A1 & A2 & A3).
    + apply wf_upd; assumption.
    + intros r Hr. unfold rf1. rewrite upd_neq; [exact (Fr0 r Hr)|].
      intros ->. destruct Hr as [Hr|Hr]; [exact (Hta Hr) | exact (Htacc Hr)].
    + eexists. split; [reflexivity|]. split; [exact A1|]. split; [exact A2|].
      rewrite A3. unfold rf1. rewrite upd_eq, M2, Ex. simpl. lia.
  - destruct (tail_acc_spec P rf rf0 (lane0 (rf0 (l_xr (k_tail_line P))) * y) F Hw0 Fr0) as (A1 & A2 & A3).
    eexists. split; [reflexivity|]. split; [exact A1|]. split; [exact A2|].
    rewrite A3, Ex. simpl. lia.
Qed.

Lemma tail_step_short : forall P rf px, tail_facts P -> tail_step P rf px [] = None.
Proof.
  intros P rf px F. unfold tail_step. destruct (k_tail_load P) as [xoff lr]. rewrite (tf_yo P F).
  destruct (vload 1 px xoff) as [[|? [|? ?]]|]; reflexivity.
Qed.

Lemma tail_loop_spec : forall P, tail_facts P -> forall fuel rf px py, (length px < fuel)%nat -> wf rf ->
  match tail_loop P fuel rf px py (Z.of_nat (length px)) with
  | None => (length py < length px)%nat
  | Some rf' => (length px <= length py)%nat /\ wf rf' /\ total (k_accs P) rf' = total (k_accs P) rf
                /\ tsum P rf' = tsum P rf + termsum (k_sub P) px py
  end.
Proof.
  intros P F. induction fuel as [|f IH]; intros rf px py Hfuel Hw; [lia|].
  cbn [tail_loop]. rewrite (tf_cmp P F), (tf_dec P F).
  destruct px as [|x px]; cbn [length] in *.
  - rewrite termsum_nil_l. repeat split; auto; lia.
  - rewrite (proj2 (Z.eqb_neq _ _)) by lia. destruct py as [|y py].
    + rewrite tail_step_short by exact F. cbn [length]. lia.
    + destruct (tail_step_spec P rf x y px py F Hw) as (rf1 & E & Hw1 & T1 & S1). rewrite E.
      replace (Z.of_nat (S (length px)) - Z.of_N 1) with (Z.of_nat (length px)) by lia.
      specialize (IH rf1 px py ltac:(lia) Hw1). cbn [length].
      destruct (tail_loop P f rf1 px py _) as [rf'|]; [|lia]. destruct IH as (L & Hw' & T' & S').
      rewrite T', S', S1, (termsum_cons _ x y px py), (termsum_cons _ x y [] []), termsum_nil_l.
      repeat split; auto; lia.
Qed.

(* the run of the reduction on Z is the image of the symbolic run *)

Section Hom.
  Variables (A B : Type) (zA : A) (addA : A -> A -> A) (zB : B) (addB : B -> B -> B) (f : A -> B).
  Hypothesis f_zero : f zA = zB.
  Hypothesis f_add : forall a b, f (addA a b) = addB (f a) (f b).

  Lemma zip2_map_hom : forall a b, zip2 addB (map f a) (map f b) = map f (zip2 addA a b).
  Proof. induction a; destruct b; simpl; auto. rewrite f_add, IHa. reflexivity. Qed.
  Lemma hadd2_map_hom : forall v, hadd2 B addB (map f v) = map f (hadd2 A addA v).
  Proof. intros v. do 4 (destruct v as [|? v]; [reflexivity|]). simpl. rewrite !f_add. reflexivity. Qed.
  Lemma repeat_map_hom : forall n, repeat zB n = map f (repeat zA n).
  Proof. induction n; simpl; [reflexivity|]. rewrite f_zero, IHn. reflexivity. Qed.

  Lemma run_rop_hom : forall op rfA rfB, (forall r, rfB r = map f (rfA r)) ->
    forall r, run_rop B zB addB rfB op r = map f (run_rop A zA addA rfA op r).
  Proof.
    intros op rfA rfB H r. destruct op; cbn [run_rop]; unfold upd; destruct (r =? d)%N; auto; rewrite !H.
    - apply zip2_map_hom.
    - rewrite map_app, <- repeat_map_hom, !firstn_map, zip2_map_hom. reflexivity.
    - rewrite map_app, <- repeat_map_hom, skipn_map, firstn_map. reflexivity.
    - rewrite !map_app, <- repeat_map_hom, !hadd2_map_hom. reflexivity.
  Qed.
  Lemma run_reduce_hom : forall ops rfA rfB, (forall r, rfB r = map f (rfA r)) ->
    forall r, run_reduce B zB addB ops rfB r = map f (run_reduce A zA addA ops rfA r).
  Proof.
    unfold run_reduce. induction ops as [|op ops IH]; intros rfA rfB H r; simpl; [apply H|].
    apply IH. intros r'. apply run_rop_hom. exact H.
  Qed.
End Hom.

(* an atom r*8+l stands for lane l of register r *)
Definition rho (rf : regfile) (atom : N) : Z := nth (N.to_nat (atom mod 8)) (rf (atom / 8)%N) 0.
Definition fsum (rf : regfile) (atoms : list N) : Z := zsum (map (rho rf) atoms).

Lemma rho_atom : forall rf r l, (l < 8)%N -> rho rf (r * 8 + l) = nth (N.to_nat l) (rf r) 0.
Proof.
  intros rf r l H. unfold rho.
  rewrite N.div_add_l, (N.div_small l 8 H), N.add_0_r by discriminate.
  rewrite N.add_comm, N.mod_add, (N.mod_small l 8 H) by discriminate. reflexivity.
Qed.

Lemma rho_lanes : forall rf r, length (rf r) = 8%nat -> map (fun l => rho rf (r * 8 + l)) lanes8 = rf r.
Proof.
  intros rf r H. unfold lanes8. cbn [map]. rewrite !rho_atom by reflexivity.
  destruct (rf r) as [|v0 v]; [discriminate|]. do 8 (destruct v as [|? v]; try discriminate). reflexivity.
Qed.

Lemma fsum_app : forall rf a b, fsum rf (a ++ b) = fsum rf a + fsum rf b.
Proof. intros. unfold fsum. rewrite map_app, zsum_app. reflexivity. Qed.
Lemma fsum_insert : forall rf x l, fsum rf (Ninsert x l) = rho rf x + fsum rf l.
Proof.
  intros rf x. induction l as [|y l IH]; simpl; [reflexivity|]. destruct (x <=? y)%N; [reflexivity|].
  unfold fsum in *. simpl. rewrite IH. lia.
Qed.
Lemma fsum_sort : forall rf l, fsum rf (Nsort l) = fsum rf l.
Proof.
  intros rf. induction l as [|x l IH]; [reflexivity|]. simpl. rewrite fsum_insert, IH. reflexivity.
Qed.

Lemma sym_rf_image : forall rf, wf rf -> forall r, rf r = map (fsum rf) (sym_rf r).
Proof.
  intros rf Hw r. unfold sym_rf. rewrite map_map. rewrite <- (rho_lanes rf r (Hw r)) at 1.
  apply map_ext. intros l. unfold fsum. simpl. lia.
Qed.

Lemma fsum_expected : forall P rf, wf rf -> fsum rf (sym_expected P) = total (k_accs P) rf + tsum P rf.
Proof.
  intros P rf Hw. unfold sym_expected. rewrite fsum_app. f_equal.
  - unfold total. induction (k_accs P) as [|a accs IH]; [reflexivity|].
    cbn [flat_map map]. rewrite fsum_app, IH. unfold fsum at 1. rewrite map_map, rho_lanes by apply Hw. reflexivity.
  - unfold tsum, fsum. rewrite map_map. set (t := l_acc (k_tail_line P)).
    rewrite <- (rho_lanes rf t (Hw t)). rewrite firstn_map. reflexivity.
Qed.

Lemma reduce_spec : forall P rf, reduce_ok P = true -> wf rf ->
  lane0 (run_reduce Z 0 Z.add (k_reduce P) rf (k_ret P)) = total (k_accs P) rf + tsum P rf.
Proof.
  intros P rf Hok Hw. unfold reduce_ok in Hok. apply Nlist_eqb_eq in Hok.
  rewrite (run_reduce_hom (list N) Z [] (@app N) 0 Z.add (fsum rf) eq_refl (fsum_app rf)
             (k_reduce P) sym_rf rf (sym_rf_image rf Hw)).
  unfold lane0. change 0 with (fsum rf []) at 1. rewrite map_nth. fold (sym_result P).
  rewrite <- fsum_sort, Hok, fsum_sort. apply fsum_expected. exact Hw.
Qed.

Lemma params_ok_facts : forall P, params_ok P = true -> block_facts P /\ tail_facts P /\ reduce_ok P = true.
Proof.
  intros P H. unfold params_ok in H.
  destruct (andb_prop _ _ H) as [[[[Hb Ht]%andb_prop Hr]%andb_prop _]%andb_prop _].
  split; [apply block_ok_facts, Hb|]. split; [apply tail_ok_facts, Ht | exact Hr].
Qed.

Lemma init_rf_wf : forall g, wf (init_rf g).
Proof. intros g r. reflexivity. Qed.

(* the count is the length of xs: with ys at least as long the kernel returns the sum over the
   positions of xs, with a shorter ys it reads past the end of ys (None) *)
Lemma kernel_total : forall P, params_ok P = true -> forall g xs ys,
  kernel_g P g xs ys = if (length xs <=? length ys)%nat then Some (termsum (k_sub P) xs ys) else None.
Proof.
  intros P Hok g xs ys. destruct (params_ok_facts P Hok) as (FB & FT & Hred). unfold kernel_g.
  set (rf1 := zero_regs (k_zeroed P) (init_rf g)).
  assert (Hw1 : wf rf1) by apply zero_regs_wf, init_rf_wf.
  assert (T1 : total (k_accs P) rf1 = 0) by apply total_zero, (bf_zeroed P FB).
  pose proof (block_loop_spec P FB (S (length xs)) rf1 xs ys (Nat.lt_succ_diag_r _) Hw1) as B.
  destruct (block_loop P _ rf1 xs ys _) as [[[[rf2 px] py] n]|];
    [|rewrite (proj2 (Nat.leb_gt _ _) B); reflexivity].
  destruct B as (-> & L & Hw2 & L' & T2). set (rf3 := zero_regs (k_tail_zeroed P) rf2).
  assert (Hw3 : wf rf3) by apply zero_regs_wf, Hw2.
  assert (T3 : total (k_accs P) rf3 = total (k_accs P) rf2).
  { apply total_ext. intros a Ha. unfold rf3. rewrite zero_regs_eq.
    rewrite (proj2 (Nmem_false a _)); [reflexivity|]. intros Hin. exact (tf_zd P FT a Hin Ha). }
  assert (S3 : tsum P rf3 = 0).
  { unfold tsum, rf3. rewrite zero_regs_eq, (proj2 (Nmem_In _ _) (tf_z P FT)). reflexivity. }
  pose proof (tail_loop_spec P FT (S (length xs)) rf3 px py ltac:(lia) Hw3) as T.
  destruct (tail_loop P _ rf3 px py _) as [rf4|].
  - destruct T as (L4 & Hw4 & T4 & S4). rewrite (proj2 (Nat.leb_le _ _)) by tauto.
    f_equal. rewrite (reduce_spec P rf4 Hred Hw4). lia.
  - rewrite (proj2 (Nat.leb_gt _ _)) by lia. reflexivity.
Qed.

Lemma testbit_word : forall bs i, N.testbit (word_of bs) (N.of_nat i) = nth i bs false.
Proof.
  induction bs as [|b bs IH]; intros i; [destruct i; reflexivity|].
  cbn [word_of]. destruct i as [|i].
  - destruct b; [rewrite N.succ_double_spec; apply N.testbit_odd_0 | rewrite N.double_spec; apply N.testbit_even_0].
  - rewrite Nat2N.inj_succ. cbn [nth]. rewrite <- IH.
    destruct b; [rewrite N.succ_double_spec; apply N.testbit_odd_succ; lia
                |rewrite N.double_spec; apply N.testbit_even_succ; lia].
Qed.

Lemma nth_zip2 : forall (f : bool -> bool -> bool) a b i, f false false = false -> length a = length b ->
  nth i (zip2 f a b) false = f (nth i a false) (nth i b false).
Proof.
  intros f a b i Hf. revert b i. induction a as [|x a IH]; intros [|y b] i H; try discriminate.
  - destruct i; symmetry; exact Hf.
  - destruct i; [reflexivity|]. cbn [zip2 nth]. apply IH, eq_add_S, H.
Qed.

Lemma word_bitwise : forall op f,
  (forall a b n, N.testbit (op a b) n = f (N.testbit a n) (N.testbit b n)) -> f false false = false ->
  forall a b, length a = length b -> op (word_of a) (word_of b) = word_of (zip2 f a b).
Proof.
  intros op f Hop Hf a b H. apply N.bits_inj. intros n. rewrite Hop, <- (N2Nat.id n), !testbit_word.
  symmetry. apply nth_zip2; assumption.
Qed.

Definition countb (bs : list bool) : N := fold_right (fun b acc => (b2n b + acc)%N) 0%N bs.
Lemma popn_zero : forall k, popn k 0 = 0%N.
Proof. induction k; simpl; auto. Qed.
Lemma popn_word : forall bs k, (length bs <= k)%nat -> popn k (word_of bs) = countb bs.
Proof.
  induction bs as [|b bs IH]; intros k H; [apply popn_zero|].
  destruct k; [simpl in H; lia|]. simpl in H. cbn [word_of popn countb fold_right].
  destruct b.
  - rewrite N.div2_succ_double. replace (N.odd (N.succ_double (word_of bs))) with true
      by (destruct (word_of bs); reflexivity).
    rewrite IH by lia. reflexivity.
  - rewrite N.div2_double. replace (N.odd (N.double (word_of bs))) with false
      by (destruct (word_of bs); reflexivity).
    rewrite IH by lia. reflexivity.
Qed.
Lemma countb_zip2 : forall f a b, countb (zip2 f a b) = count2 f a b.
Proof. induction a; destruct b; simpl; auto. rewrite <- IHa. reflexivity. Qed.
Lemma count2_app : forall f a b c d, length a = length c ->
  count2 f (a ++ b) (c ++ d) = (count2 f a c + count2 f b d)%N.
Proof.
  intros f a. induction a; intros b c d H; destruct c; simpl in *; try discriminate; [reflexivity|].
  rewrite IHa by lia. lia.
Qed.

Fixpoint wcount (op : N -> N -> N) (x y : list N) : N :=
  match x, y with a :: x', b :: y' => (popcount (op a b) + wcount op x' y')%N | _, _ => 0%N end.
Lemma hamming_wcount : forall x y, hamming x y = wcount N.lxor x y.
Proof. induction x; destruct y; simpl; auto. rewrite IHx. reflexivity. Qed.
Lemma jaccard_wcount : forall x y, jaccard x y = (wcount N.land x y, wcount N.lor x y).
Proof. induction x; destruct y; simpl; auto. rewrite IHx. reflexivity. Qed.

Lemma pack_bits_nil : forall f, pack_bits f [] = [].
Proof. destruct f; reflexivity. Qed.
Lemma pack_bits_step : forall f bs, (0 < length bs)%nat ->
  pack_bits (S f) bs = word_of (firstn 64 bs) :: pack_bits f (skipn 64 bs).
Proof. intros f [|b r] H; [inversion H | reflexivity]. Qed.

Lemma wcount_pack : forall op bop,
  (forall a b n, N.testbit (op a b) n = bop (N.testbit a n) (N.testbit b n)) -> bop false false = false ->
  forall fuel b1 b2, length b1 = length b2 -> (length b1 <= fuel)%nat ->
  wcount op (pack_bits fuel b1) (pack_bits fuel b2) = count2 bop b1 b2.
Proof.
  intros op bop Hop Hbop. induction fuel as [|f IH]; intros b1 b2 Hlen Hf.
  - destruct b1; [reflexivity | simpl in Hf; lia].
  - destruct (Nat.eq_0_gt_0_cases (length b1)) as [E|Hpos].
    + apply length_zero_iff_nil in E. subst b1. rewrite pack_bits_nil. reflexivity.
    + rewrite !pack_bits_step by lia. cbn [wcount]. rewrite IH by (rewrite !skipn_length; lia).
      rewrite (word_bitwise op bop Hop Hbop) by (rewrite !firstn_length; lia).
      unfold popcount. rewrite popn_word by (rewrite zip2_length; rewrite !firstn_length; lia).
      rewrite countb_zip2, <- count2_app by (rewrite !firstn_length; lia).
      rewrite !firstn_skipn. reflexivity.
Qed.

Lemma bits_of_length : forall th v, length (bits_of th v) = Nat.min (length th) (length v).
Proof. unfold bits_of. induction th; destruct v; simpl; auto. Qed.

Lemma wcount_packed : forall op bop,
  (forall a b n, N.testbit (op a b) n = bop (N.testbit a n) (N.testbit b n)) -> bop false false = false ->
  forall th v1 v2, length v1 = length v2 ->
  wcount op (pack th v1) (pack th v2) = count2 bop (bits_of th v1) (bits_of th v2).
Proof.
  intros op bop Hop Hbop th v1 v2 H. unfold pack.
  assert (L : length (bits_of th v1) = length (bits_of th v2)) by now rewrite !bits_of_length, H.
  rewrite <- L. apply (wcount_pack op bop Hop Hbop); [exact L | apply Nat.le_refl].
Qed.

Lemma nth_pack_bits : forall k fuel bs, (length bs <= fuel)%nat ->
  nth k (pack_bits fuel bs) 0%N = word_of (firstn 64 (skipn (64 * k) bs)).
Proof.
  induction k as [|k IH]; intros fuel bs H.
  - destruct fuel; [destruct bs; [reflexivity|simpl in H; lia]|]. destruct bs; reflexivity.
  - replace (64 * S k)%nat with (64 + 64 * k)%nat by lia. rewrite skipn_add.
    destruct (Nat.eq_0_gt_0_cases (length bs)) as [E|Hpos].
    + apply length_zero_iff_nil in E. subst bs. rewrite pack_bits_nil, !skipn_nil. reflexivity.
    + destruct fuel; [lia|]. rewrite pack_bits_step by exact Hpos. cbn [nth]. apply IH. rewrite skipn_length. lia.
Qed.

Lemma pack_bits_length : forall fuel bs, (length bs <= fuel)%nat ->
  length (pack_bits fuel bs) = ((length bs + 63) / 64)%nat.
Proof.
  induction fuel as [|f IH]; intros bs H.
  - destruct bs; [reflexivity|simpl in H; lia].
  - destruct (Nat.eq_0_gt_0_cases (length bs)) as [E|Hpos].
    { apply length_zero_iff_nil in E. subst bs. reflexivity. }
    rewrite pack_bits_step by exact Hpos. cbn [length].
    rewrite IH, skipn_length by (rewrite skipn_length; lia).
    destruct (Nat.le_gt_cases (length bs) 64) as [Hle|Hgt].
    + replace (length bs - 64)%nat with 0%nat by lia.
      rewrite <- (Nat.div_unique (length bs + 63) 64 1 (length bs - 1)); [reflexivity | lia..].
    + replace (length bs + 63)%nat with ((length bs - 64 + 63) + 1 * 64)%nat by lia.
      rewrite Nat.div_add by discriminate. lia.
Qed.

Lemma dot_sym : forall xs ys, dot xs ys = dot ys xs.
Proof. induction xs; destruct ys; simpl; auto. rewrite IHxs. lia. Qed.
Lemma sqeuclid_sym : forall xs ys, sqeuclid xs ys = sqeuclid ys xs.
Proof. induction xs; destruct ys; simpl; auto. rewrite IHxs. lia. Qed.
Lemma wcount_sym : forall op, (forall a b, op a b = op b a) -> forall x y, wcount op x y = wcount op y x.
Proof. intros op H. induction x; destruct y; simpl; auto. rewrite IHx, H. reflexivity. Qed.
Lemma hamming_sym : forall x y, hamming x y = hamming y x.
Proof. intros. rewrite !hamming_wcount. apply wcount_sym. apply N.lxor_comm. Qed.
Lemma jaccard_sym : forall x y, jaccard x y = jaccard y x.
Proof.
  intros. rewrite !jaccard_wcount. f_equal; apply wcount_sym; [apply N.land_comm|apply N.lor_comm].
Qed.
Lemma count2_sym : forall f, (forall a b, f a b = f b a) -> forall x y, count2 f x y = count2 f y x.
Proof. intros f H. induction x; destruct y; simpl; auto. rewrite IHx, H. reflexivity. Qed.

Lemma pq_dfn_sym : forall metric xs ys, pq_dfn metric xs ys = pq_dfn metric ys xs.
Proof.
  intros metric xs ys. unfold pq_dfn, negdot. destruct (metric =? 1)%N.
  - rewrite dot_sym. reflexivity.
  - apply sqeuclid_sym.
Qed.
