(* Props_C15.v -- property C15: inserted points are partitioned over shards
   within limits; quotas are enforced.  The statements, each derived in a few
   lines from Proofs_C15.v and Proofs_C15b.v.

   distribute shards sizes maxS maxC  models cluster/placement.go
   distributePoints: shards = (Size, PointCount) of the existing shards in
   order, sizes = len(Data)+len(Id) of the id-sorted batch.  The result is the
   list of (shard index in the final shard list, start, end) plus the number
   of createShardFn calls.  Hypotheses of the quantifier: every point fits an
   empty shard (0 <= p <= maxS) and 1 <= maxC.  Existing shards may be at any
   fill level (also over a limit). *)
From Coq Require Import List NArith ZArith Bool Arith Sorted Lia.
From Semadb Require Import Model_C15 Proofs_C15 Proofs_C15b.
Import ListNotations.
Open Scope Z_scope.

(* the loop returns: fuel |shards| + |points| + 1 is enough, for EVERY input *)
Theorem c15_terminates : forall shards sizes maxS maxC,
  Forall (fun p => 0 <= p <= maxS) sizes -> 1 <= maxC ->
  exists out created, distribute shards sizes maxS maxC = Some (out, created).
Proof. intros. apply distribute_fuel_enough; [assumption|assumption|lia]. Qed.
Print Assumptions c15_terminates.

Theorem c15_fuel_bound : forall fuel shards sizes maxS maxC,
  Forall (fun p => 0 <= p <= maxS) sizes -> 1 <= maxC ->
  (length shards + length sizes + 1 <= fuel)%nat ->
  exists out created, distribute_fuel fuel shards sizes maxS maxC = Some (out, created).
Proof. intros. apply distribute_fuel_enough; [assumption|assumption|lia]. Qed.
Print Assumptions c15_fuel_bound.

(* every point goes to exactly one shard, as contiguous ranges in shard order:
       the ranges are non-empty, chained from 0 to n (partition_spec: chain 0 out n,
       shard indices strictly increasing and inside the final shard list), hence
       their concatenation is 0,1,...,n-1 *)
Theorem c15_partition : forall shards sizes maxS maxC out created,
  Forall (fun p => 0 <= p <= maxS) sizes -> 1 <= maxC ->
  distribute shards sizes maxS maxC = Some (out, created) ->
  partition_spec (length shards + created) (length sizes) out /\
  flat_map (fun a => seq (a_start a) (a_end a - a_start a)) out = seq 0 (length sizes) /\
  Forall (fun a => (a_start a < a_end a)%nat) out.
Proof.
  intros shards sizes maxS maxC out created Hfit Hc H.
  destruct (distribute_spec _ _ _ _ _ _ _ Hfit Hc H) as (HP & _ & _).
  split; [exact HP|]. destruct HP as (Hch & _ & _).
  split; [|exact (chain_nonempty _ _ _ Hch)].
  destruct (chain_flat _ _ _ Hch) as [Hf _]. rewrite Nat.sub_0_r in Hf. exact Hf.
Qed.
Print Assumptions c15_partition.

(* no shard that receives points exceeds the point-count or the size limit *)
Theorem c15_limits : forall shards sizes maxS maxC out created,
  Forall (fun p => 0 <= p <= maxS) sizes -> 1 <= maxC ->
  distribute shards sizes maxS maxC = Some (out, created) ->
  forall i s e, In (i, s, e) out ->
    snd (nth i (final_shards shards created) (0, 0)) + Z.of_nat (e - s) <= maxC /\
    fst (nth i (final_shards shards created) (0, 0)) + sumZ (slice sizes s e) <= maxS.
Proof.
  intros shards sizes maxS maxC out created Hfit Hc H i s e Hin.
  destruct (distribute_spec _ _ _ _ _ _ _ Hfit Hc H) as (_ & HL & _).
  exact (proj1 (Forall_forall _ _) HL _ Hin).
Qed.
Print Assumptions c15_limits.

(* a shard is created only when needed: each of the `created` new shards
       (index |shards|+k) received a range [s,e), and -- unless it is the very first
       shard of the collection -- point s, the next unassigned one when it was
       created, does not fit the shard before it filled with that shard's own range
       (one of the two limits would be exceeded) *)
Theorem c15_fresh_only_when_needed : forall shards sizes maxS maxC out created,
  Forall (fun p => 0 <= p <= maxS) sizes -> 1 <= maxC ->
  distribute shards sizes maxS maxC = Some (out, created) ->
  forall k, (k < created)%nat ->
    exists s e, In ((length shards + k)%nat, s, e) out /\
      match (length shards + k)%nat with
      | O => True
      | S i => exists p, nth_error sizes s = Some p /\
                 no_fit maxS maxC (fill_after (final_shards shards created) sizes out i) p
      end.
Proof. intros shards sizes maxS maxC out created Hfit Hc H. apply (distribute_spec _ _ _ _ _ _ _ Hfit Hc H). Qed.
Print Assumptions c15_fresh_only_when_needed.

(* range_of (used by fill_after / new_count) is the range of shard i, or the empty range *)
Theorem c15_range_of : forall out i, StronglySorted lt (map a_idx out) ->
  (forall s e, In (i, s, e) out -> range_of out i = (s, e)) /\
  ((forall s e, ~ In (i, s, e) out) -> range_of out i = (O, O)).
Proof. intros out i HS. split; [intros s e; apply range_of_in, HS|apply range_of_notin]. Qed.
Print Assumptions c15_range_of.

(* point counts: sum over the final shards of (count + length of its range)
       = old total + n *)
Theorem c15_count_identity : forall shards sizes maxS maxC out created,
  Forall (fun p => 0 <= p <= maxS) sizes -> 1 <= maxC ->
  distribute shards sizes maxS maxC = Some (out, created) ->
  new_total (final_shards shards created) out = total_count shards + Z.of_nat (length sizes).
Proof.
  intros shards sizes maxS maxC out created Hfit Hc H.
  destruct (distribute_spec _ _ _ _ _ _ _ Hfit Hc H) as (HP & _ & _).
  rewrite <- (total_count_final shards created). apply count_identity.
  rewrite final_shards_length. exact HP.
Qed.
Print Assumptions c15_count_identity.

(* the identity holds for ANY assignment that is a partition in the sense above *)
Theorem c15_count_identity_any : forall fs n out, partition_spec (length fs) n out ->
  new_total fs out = total_count fs + Z.of_nat n.
Proof. exact count_identity. Qed.
Print Assumptions c15_count_identity_any.

(* the checker used on the observations of the real code is exactly the spec *)
Theorem c15_check_dist_correct : forall shards sizes maxS maxC out created,
  check_dist shards sizes maxS maxC out created = true <->
  partition_spec (length shards + created) (length sizes) out /\
  limits_spec (final_shards shards created) sizes maxS maxC out /\
  fresh_spec shards sizes maxS maxC out created.
Proof. exact check_dist_spec. Qed.
Print Assumptions c15_check_dist_correct.

Theorem c15_model_passes_checker : forall shards sizes maxS maxC out created,
  Forall (fun p => 0 <= p <= maxS) sizes -> 1 <= maxC ->
  distribute shards sizes maxS maxC = Some (out, created) ->
  check_dist shards sizes maxS maxC out created = true.
Proof. intros shards sizes maxS maxC out created Hfit Hc H. apply check_dist_spec, (distribute_spec _ _ _ _ _ _ _ Hfit Hc H). Qed.
Print Assumptions c15_model_passes_checker.

(* the hypothesis is needed: a point that fits no empty shard makes the loop
       create shards forever (no fuel is enough).  Outside the property's
       quantifier; recorded as finding F11 in DESIGN.md section 6. *)
Theorem c15_no_fit_diverges : forall fuel shards sizes maxS maxC,
  Forall (fun s : shard => 0 <= fst s) shards -> Forall (fun p => 0 <= p) sizes ->
  Exists (fun p => p > maxS) sizes ->
  distribute_fuel fuel shards sizes maxS maxC = None.
Proof. exact distribute_diverges. Qed.
Print Assumptions c15_no_fit_diverges.

(* quotas: what the two checks answer, and refusals have no side effect *)
Theorem c15_quota :
  (forall total n quota, insert_refused total n quota = true <-> total + n > quota) /\
  (forall count maxc ex,
     (ex = true -> create_collection count maxc ex = CrExists) /\
     (ex = false -> count >= maxc -> create_collection count maxc ex = CrQuota) /\
     (ex = false -> count < maxc -> create_collection count maxc ex = CrCreated)) /\
  (forall pl st r, snd (step pl st r) <> RespOk -> fst (step pl st r) = st).
Proof. split; [exact insert_refused_spec|]. split; [exact create_collection_spec|exact step_refusal_unchanged]. Qed.
Print Assumptions c15_quota.

Theorem c15_quota_insert : forall pl st u c n failed t, lookup st (u, c) = Some t ->
  (snd (step pl st (RInsert u c n failed)) = RespQuota <-> t + n > snd (pl u)) /\
  (snd (step pl st (RInsert u c n failed)) = RespOk <-> t + n <= snd (pl u)) /\
  (t + n <= snd (pl u) -> fst (step pl st (RInsert u c n failed)) = set_total st (u, c) (t + n - failed)).
Proof.
  intros pl st u c n failed t H. simpl. rewrite H. unfold insert_refused.
  destruct (t + n >? snd (pl u)) eqn:E; simpl; repeat split; intros; try congruence; try lia; reflexivity.
Qed.
Print Assumptions c15_quota_insert.

Theorem c15_quota_create : forall pl st u c,
  (snd (step pl st (RCreate u c)) = RespExists <-> lookup st (u, c) <> None) /\
  (snd (step pl st (RCreate u c)) = RespQuota <-> lookup st (u, c) = None /\ user_count st u >= fst (pl u)) /\
  (snd (step pl st (RCreate u c)) = RespOk <-> lookup st (u, c) = None /\ user_count st u < fst (pl u)) /\
  (snd (step pl st (RCreate u c)) = RespOk -> fst (step pl st (RCreate u c)) = st ++ [((u, c), 0)]).
Proof.
  intros pl st u c. simpl. unfold create_collection.
  destruct (lookup st (u, c)) as [t|]; simpl.
  - repeat split; intros; try congruence; try (destruct H; congruence).
  - destruct (user_count st u >=? fst (pl u)) eqn:E; simpl;
      repeat split; intros; try congruence; try lia; try (destruct H; congruence); try (destruct H; lia).
Qed.
Print Assumptions c15_quota_create.

(* over ANY sequence of creations and inserts (failed ranges allowed, 0 <= failed):
   a user never has more collections than max(plan, what he started with), and no
   collection's total exceeds max(quota, what it started with) *)
Theorem c15_quota_invariant : forall pl st0 rs,
  Forall (fun e : ckey * Z => 0 <= snd e) st0 -> Forall request_ok rs ->
  (forall u, user_count (run pl st0 rs) u <= Z.max (fst (pl u)) (user_count st0 u)) /\
  (forall k t, lookup (run pl st0 rs) k = Some t -> t <= Z.max (snd (pl (fst k))) (init_total st0 k)).
Proof.
  intros pl st0 rs _ Hrs.
  destruct (run_invariant pl st0 rs st0 Hrs (quota_inv_init pl st0)) as (HC & HT & _). split; assumption.
Qed.
Print Assumptions c15_quota_invariant.

(* non-vacuity: concrete instances computed by the kernel *)
(* shard 0 is 10 bytes below the size limit, shard 1 is at the count limit, shard 2
   is empty and takes 4 points (the 5th would exceed the size limit); a 4th shard is created *)
Example c15_ex_dist :
  distribute [(190, 2); (64, 5); (0, 0)] [30; 30; 30; 100; 20] 200 5
  = Some ([(2, 0, 4); (3, 4, 5)]%nat, 1%nat)
  /\ inputs_ok [(190, 2); (64, 5); (0, 0)] [30; 30; 30; 100; 20] 200 5
  /\ check_dist [(190, 2); (64, 5); (0, 0)] [30; 30; 30; 100; 20] 200 5 [(2, 0, 4); (3, 4, 5)]%nat 1 = true.
Proof.
  split; [vm_compute; reflexivity|]. split; [|vm_compute; reflexivity].
  unfold inputs_ok. repeat split; repeat constructor; simpl; try discriminate.
Qed.
(* no shard yet, count limit 2: three shards are created *)
Example c15_ex_empty :
  distribute [] [24; 24; 24; 24; 24] 1000 2 = Some ([(0, 0, 2); (1, 2, 4); (2, 4, 5)]%nat, 3%nat).
Proof. vm_compute. reflexivity. Qed.
(* the checker refuses: a shard more than needed (103), a count limit exceeded (102), a gap (101) *)
Example c15_ex_checker_refuses :
  check_dist [(0, 0)] [24; 24] 1000 2 [(0, 0, 1); (1, 1, 2)]%nat 1 = false /\
  limits_b (final_shards [(0, 1)] 0) [24; 24] 1000 2 [(0, 0, 2)]%nat = false /\
  partition_b 2 3 [(0, 0, 1); (1, 2, 3)]%nat = false.
Proof. vm_compute. repeat split; reflexivity. Qed.
(* what the property does NOT say: ranges follow the shard order, so a shard is created as soon
   as the next point does not fit the LAST shard, even if an earlier shard still has room for it
   (here point 45 would fit shard 0: 150 + 45 <= 200) *)
Example c15_ex_earlier_shard_has_room :
  distribute [(150, 0); (100, 0)] [60; 45] 200 5 = Some ([(1, 0, 1); (2, 1, 2)]%nat, 1%nat)
  /\ check_dist [(150, 0); (100, 0)] [60; 45] 200 5 [(1, 0, 1); (2, 1, 2)]%nat 1 = true.
Proof. vm_compute. split; reflexivity. Qed.
Example c15_ex_diverges : distribute [(10, 1)] [24; 300] 200 5 = None.
Proof. vm_compute. reflexivity. Qed.
(* plan: 2 collections, 5 points.  Third creation and re-creation are refused, the insert
   up to the quota passes, one more point is refused; refusals change nothing *)
Example c15_ex_quota :
  let pl := fun _ : N => (2, 5) in
  run pl [] [RCreate 1 1; RCreate 1 2; RCreate 1 3; RCreate 1 1; RInsert 1 1 5 0; RInsert 1 1 1 0]
  = [((1%N, 1%N), 5); ((1%N, 2%N), 0)]
  /\ snd (step pl [((1%N, 1%N), 5); ((1%N, 2%N), 0)] (RCreate 1 3)) = RespQuota
  /\ snd (step pl [((1%N, 1%N), 5); ((1%N, 2%N), 0)] (RCreate 1 1)) = RespExists
  /\ snd (step pl [((1%N, 1%N), 5); ((1%N, 2%N), 0)] (RInsert 1 1 1 0)) = RespQuota
  /\ snd (step pl [((1%N, 1%N), 4); ((1%N, 2%N), 0)] (RInsert 1 1 1 0)) = RespOk.
Proof. vm_compute. repeat split; reflexivity. Qed.

(* on a live node: when the checker accepts what the shards hold after an accepted insert, every shard holds a
   contiguous range of the id-sorted batch and every position 0..n-1 of the batch is stored exactly once *)
Theorem c15_live_checker_sound : forall n stored, live_ranges_b n stored = true ->
  (forall s, In s stored -> exists a, s = range_from a (length s))
  /\ length (concat stored) = n
  /\ forall i, (i < n)%nat -> count_n (N.of_nat i) (concat stored) = 1%nat.
Proof.
  intros n stored H. apply andb_true_iff in H as [Hc Ho].
  split; [|exact (once_each_b_spec _ _ Ho)].
  intros s Hs. apply contig_b_spec. exact (proj1 (forallb_forall _ _) Hc s Hs).
Qed.
Print Assumptions c15_live_checker_sound.
(* three points sorted by id over two shards: [0,2) and [2,3) pass; a shard holding positions 0 and 2 does not *)
Example c15_ex_live :
  live_ranges_b 3 [[0; 1]; [2]]%N = true /\ live_ranges_b 3 [[0; 2]; [1]]%N = false /\ live_ranges_b 3 [[0; 1]; [1; 2]]%N = false.
Proof. vm_compute. repeat split; reflexivity. Qed.

(* and the other way round: what the model's assignment stores passes that checker, for every result of
   distribute (the positions shard i holds are model_stored out i); the checker is exact on model-conforming runs *)
Theorem c15_live_checker_accepts_model : forall shards sizes maxS maxC out created,
  Forall (fun p => 0 <= p <= maxS) sizes -> 1 <= maxC ->
  distribute shards sizes maxS maxC = Some (out, created) ->
  live_ranges_b (length sizes) (map (model_stored out) (seq 0 (length shards + created))) = true.
Proof.
  intros shards sizes maxS maxC out created Hfit Hc H.
  apply live_checker_accepts_model, (distribute_spec _ _ _ _ _ _ _ Hfit Hc H).
Qed.
Print Assumptions c15_live_checker_accepts_model.
