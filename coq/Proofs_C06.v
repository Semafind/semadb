(* Proofs_C06.v -- lemmas behind Props_C06.v: merge of ranked sub-results, set
   algebra of composite nodes, correctness of the tie-insensitive order check
   for every correct sort, missing values last, paging, field selection. *)
From Coq Require Import List NArith ZArith QArith Bool Lia Sorted Permutation.
From Coq Require Import ZifyN ZifyNat.
From Semadb Require Import ListFacts Bytes U64 Value Obs Dyadic Model_C19 Model_C01 Model_C02 IdSets Model_C04 Model_C06 Model_C06M
  Run_C06.
From Semadb Require KV.
Import ListNotations.
Open Scope N_scope.

(* A ranked list is read as a finite map from ids (rk_find); rk_add acts on it one id at a time, so the
   merge is followed id by id: the entries carrying that id are absorbed into one, left to right. *)

Definition absorb (x e : rk) : rk :=
  mkRk (k_id x) (k_hybrid x + k_hybrid e)
       (match k_dist x with Some d => Some d | None => k_dist e end)
       (match k_score x with Some s => Some s | None => k_score e end).

Definition absorb_opt (o : option rk) (e : rk) : option rk :=
  Some (match o with Some x => absorb x e | None => e end).

Definition entries (id : uuid) (l : list rk) : list rk := filter (fun e => bytes_eqb id (k_id e)) l.

Lemma rk_find_In id l : In id (rk_ids l) <-> rk_find id l <> None.
Proof.
  induction l as [|y l IH]; cbn; [tauto|].
  destruct (bytes_eqb_spec id (k_id y)) as [->|E]; [split; [discriminate|now left]|].
  rewrite <- IH. split; [intros [H|H]; [congruence|exact H]|now right].
Qed.

Lemma rk_find_nodup l x : NoDup (rk_ids l) -> In x l -> rk_find (k_id x) l = Some x.
Proof.
  induction l as [|y l IH]; cbn; [tauto|].
  intros ND [->|H]; [now rewrite bytes_eqb_refl|].
  inversion ND as [|? ? Hn ND']. subst.
  destruct (bytes_eqb_spec (k_id x) (k_id y)) as [E|]; [|auto].
  destruct Hn. rewrite <- E. now apply in_map.
Qed.

(* searchParallel's "seen before? then add to it, else append", as a recursion on the table *)
Lemma rk_add_cons x r e :
  rk_add (x :: r) e = if bytes_eqb (k_id e) (k_id x) then absorb x e :: r else x :: rk_add r e.
Proof.
  unfold rk_add. cbn. destruct (bytes_eqb (k_id e) (k_id x)); [reflexivity|].
  now destruct (rk_find (k_id e) r).
Qed.

Lemma rk_find_add id acc e :
  rk_find id (rk_add acc e) =
  if bytes_eqb id (k_id e) then absorb_opt (rk_find id acc) e else rk_find id acc.
Proof.
  induction acc as [|x acc IH]; [reflexivity|].
  rewrite rk_add_cons. destruct (bytes_eqb_spec (k_id e) (k_id x)) as [E|E]; cbn [rk_find absorb k_id].
  - rewrite E. now destruct (bytes_eqb id (k_id x)).
  - rewrite IH. destruct (bytes_eqb_spec id (k_id x)) as [->|]; [|reflexivity].
    destruct (bytes_eqb_spec (k_id x) (k_id e)); [congruence|reflexivity].
Qed.

Lemma rk_add_nodup acc e : NoDup (rk_ids acc) -> NoDup (rk_ids (rk_add acc e)).
Proof.
  induction acc as [|x acc IH]; intros ND; [repeat constructor; intros []|].
  rewrite rk_add_cons. destruct (bytes_eqb_spec (k_id e) (k_id x)) as [E|E]; [exact ND|].
  inversion ND as [|? ? Hn ND']. subst. constructor; [|auto].
  rewrite rk_find_In, rk_find_add in *.
  destruct (bytes_eqb_spec (k_id x) (k_id e)); [congruence|assumption].
Qed.

Lemma rk_find_fold id L acc :
  rk_find id (fold_left rk_add L acc) = fold_left absorb_opt (entries id L) (rk_find id acc).
Proof.
  revert acc. induction L as [|e L IH]; intros acc; cbn; [reflexivity|].
  rewrite IH, rk_find_add. destruct (bytes_eqb id (k_id e)); reflexivity.
Qed.

Lemma fold_add_filter (f : rk -> bool) c acc :
  fold_left (fun acc e => if f e then rk_add acc e else acc) c acc = fold_left rk_add (filter f c) acc.
Proof.
  revert acc. induction c as [|e c IH]; intros acc; cbn; [reflexivity|].
  destruct (f e); apply IH.
Qed.

(* the two nested loops are one loop over the kept entries of all children *)
Lemma merge_ranked_flat is_or final children :
  merge_ranked is_or final children =
  fold_left rk_add (filter (fun e => kept_in is_or final (k_id e)) (concat children)) [].
Proof.
  unfold merge_ranked. generalize (@nil rk) as acc.
  induction children as [|c cs IH]; intros acc; cbn; [reflexivity|].
  rewrite IH, (fold_add_filter (fun e => kept_in is_or final (k_id e))), filter_app, fold_left_app. reflexivity.
Qed.

Lemma entries_kept is_or final id l :
  entries id (filter (fun e => kept_in is_or final (k_id e)) l) =
  if kept_in is_or final id then entries id l else [].
Proof.
  unfold entries. induction l as [|e l IH]; cbn; [now destruct (kept_in is_or final id)|].
  destruct (kept_in is_or final (k_id e)) eqn:A; cbn;
    (destruct (bytes_eqb_spec id (k_id e)) as [->|]; [rewrite IH, A; reflexivity|exact IH]).
Qed.

Lemma entries_nodup id c :
  NoDup (rk_ids c) -> entries id c = match rk_find id c with Some e => [e] | None => [] end.
Proof.
  induction c as [|x c IH]; cbn; [reflexivity|].
  intros ND. inversion ND as [|? ? Hn ND']. subst.
  destruct (bytes_eqb_spec id (k_id x)) as [->|]; [|auto].
  f_equal. fold (entries (k_id x) c). rewrite (IH ND'). rewrite rk_find_In in Hn.
  destruct (rk_find (k_id x) c); [destruct Hn; discriminate|reflexivity].
Qed.

Lemma entries_contribs id children :
  Forall (fun c => NoDup (rk_ids c)) children ->
  entries id (concat children) = contribs id children.
Proof.
  unfold entries, contribs. rewrite <- concat_filter_map, flat_map_concat_map.
  induction 1 as [|c cs Hc _ IH]; cbn; [reflexivity|].
  now rewrite IH, <- (entries_nodup id c Hc).
Qed.

Lemma contribs_In id children :
  contribs id children <> [] <-> Exists (fun c => In id (rk_ids c)) children.
Proof.
  unfold contribs. induction children as [|c cs IH]; cbn.
  - rewrite Exists_nil. intuition.
  - rewrite Exists_cons, <- IH, rk_find_In. destruct (rk_find id c); cbn; intuition congruence.
Qed.

Lemma fold_absorb_some rest x : fold_left absorb_opt rest (Some x) = Some (fold_left absorb rest x).
Proof.
  revert x. induction rest as [|e rest IH]; intros x; cbn; [reflexivity|]. apply IH.
Qed.

Lemma fold_absorb_eq rest x :
  fold_left absorb rest x =
  mkRk (k_id x) (sum_left (map k_hybrid (x :: rest)))
       (first_some (map k_dist (x :: rest))) (first_some (map k_score (x :: rest))).
Proof.
  revert x. induction rest as [|e rest IH]; intros x; cbn [fold_left].
  - destruct x as [i h [d|] [s|]]; reflexivity.
  - rewrite IH. cbn. now destruct (k_dist x), (k_score x).
Qed.

Lemma fold_absorb_id rest x : k_id (fold_left absorb rest x) = k_id x.
Proof. now rewrite fold_absorb_eq. Qed.

Lemma sum_left_Qeq l : (sum_left l == fold_right Qplus 0 l)%Q.
Proof.
  destruct l as [|x r]; cbn; [reflexivity|].
  revert x. induction r as [|y r IH]; intros x; cbn.
  - ring.
  - rewrite IH. ring.
Qed.

Lemma merge_ranked_nodup is_or final children : NoDup (rk_ids (merge_ranked is_or final children)).
Proof.
  rewrite merge_ranked_flat.
  apply (fold_left_inv (fun acc => NoDup (rk_ids acc))); [intros acc e _; apply rk_add_nodup|constructor].
Qed.

Lemma merge_ranked_find is_or final children id :
  Forall (fun c => NoDup (rk_ids c)) children ->
  rk_find id (merge_ranked is_or final children) =
  if kept_in is_or final id
  then match contribs id children with [] => None | e :: rest => Some (fold_left absorb rest e) end
  else None.
Proof.
  intros H. rewrite merge_ranked_flat, rk_find_fold, entries_kept, (entries_contribs _ _ H). cbn [rk_find].
  destruct (kept_in is_or final id); [|reflexivity].
  destruct (contribs id children); [reflexivity|apply fold_absorb_some].
Qed.

Lemma merge_ranked_In is_or final children id :
  Forall (fun c => NoDup (rk_ids c)) children ->
  In id (rk_ids (merge_ranked is_or final children)) <->
  (exists c, In c children /\ In id (rk_ids c)) /\ (is_or = true \/ In id final).
Proof.
  intros H. rewrite rk_find_In, (merge_ranked_find _ _ _ _ H), <- Exists_exists, <- contribs_In, <- mem_bytes_In, <- orb_true_iff.
  fold (kept_in is_or final id).
  destruct (kept_in is_or final id), (contribs id children); intuition congruence.
Qed.

Lemma merge_ranked_entry is_or final children r :
  Forall (fun c => NoDup (rk_ids c)) children -> In r (merge_ranked is_or final children) ->
  exists e rest, contribs (k_id r) children = e :: rest /\ r = fold_left absorb rest e.
Proof.
  intros H Hr. pose proof (rk_find_nodup _ _ (merge_ranked_nodup is_or final children) Hr) as F.
  rewrite (merge_ranked_find _ _ _ _ H) in F.
  destruct (kept_in is_or final (k_id r)); [|discriminate].
  destruct (contribs (k_id r) children) as [|e rest]; [discriminate|].
  injection F as <-. eauto.
Qed.

Lemma nth_error_firstn_lt {A} (n i : nat) (l : list A) :
  (i < n)%nat -> nth_error (firstn n l) i = nth_error l i.
Proof.
  revert i l. induction n as [|n IH]; intros i l Hi; [lia|].
  destruct l as [|x l]; cbn; [reflexivity|].
  destruct i as [|i]; cbn; [reflexivity|]. apply IH. lia.
Qed.

Lemma page_pos {A} (o l : N) (xs : list A) :
  0 < l -> page o l xs = firstn (N.to_nat l) (skipn (N.to_nat o) xs).
Proof. intros Hl. unfold page. destruct (N.eqb_spec l 0); [lia|reflexivity]. Qed.

Lemma page_zero {A} (o : N) (xs : list A) : page o 0 xs = skipn (N.to_nat o) xs.
Proof. unfold page. cbn. apply firstn_all2. rewrite skipn_length. lia. Qed.

Lemma page_add {A} (o l l' : N) (xs : list A) :
  0 < l -> 0 < l' -> page o l xs ++ page (o + l) l' xs = page o (l + l') xs.
Proof.
  intros Hl Hl'. rewrite !page_pos by lia.
  now rewrite !N2Nat.inj_add, firstn_add, skipn_add.
Qed.

Lemma page_add_rest {A} (o l : N) (xs : list A) :
  0 < l -> page o l xs ++ page (o + l) 0 xs = page o 0 xs.
Proof.
  intros Hl. rewrite page_pos, !page_zero, N2Nat.inj_add, skipn_add by assumption. apply firstn_skipn.
Qed.

Lemma pages_concat {A} (l : N) (xs : list A) (n : nat) :
  0 < l ->
  concat (map (fun i => page (N.of_nat i * l) l xs) (seq 0 n)) = firstn (n * N.to_nat l) xs.
Proof.
  intros Hl. induction n as [|n IH]; [reflexivity|].
  rewrite seq_S, map_app, concat_app, IH. cbn [map concat Nat.add]. rewrite app_nil_r.
  rewrite page_pos, N2Nat.inj_mul, Nat2N.id by assumption.
  replace (S n * N.to_nat l)%nat with (n * N.to_nat l + N.to_nat l)%nat by lia.
  now rewrite firstn_add.
Qed.

Lemma pages_cover {A} (l : N) (xs : list A) (n : nat) :
  0 < l -> (length xs <= n * N.to_nat l)%nat ->
  concat (map (fun i => page (N.of_nat i * l) l xs) (seq 0 n)) = xs.
Proof.
  intros Hl Hn. rewrite pages_concat by assumption. now apply firstn_all2.
Qed.

Section Order.
  Context {A : Type}.
  Variable cmp : A -> A -> comparison.
  Hypothesis P : cmp_preorder cmp.

  Lemma cle_refl x : cle cmp x x.
  Proof. unfold cle. rewrite (cmp_refl _ P). discriminate. Qed.

  Lemma cle_trans x y z : cle cmp x y -> cle cmp y z -> cle cmp x z.
  Proof. apply (cmp_trans _ P). Qed.

  (* cmp x y, read as the pair of answers to x <= y and y <= x *)
  Lemma cmp_spec x y :
    match cmp x y with
    | Eq => cle cmp x y /\ cle cmp y x
    | Lt => cle cmp x y /\ ~ cle cmp y x
    | Gt => ~ cle cmp x y /\ cle cmp y x
    end.
  Proof. unfold cle. rewrite (cmp_antisym _ P x y). destruct (cmp x y); cbn; split; congruence. Qed.

  Lemma cmp_gt_cle x y : cmp x y = Gt -> cle cmp y x.
  Proof. intros H. pose proof (cmp_spec x y) as S. rewrite H in S. apply S. Qed.

  Lemma cle_total x y : cle cmp x y \/ cle cmp y x.
  Proof. pose proof (cmp_spec x y). destruct (cmp x y); tauto. Qed.

  Lemma cle_antisym x y : cle cmp x y -> cle cmp y x -> cmp x y = Eq.
  Proof. pose proof (cmp_spec x y). destruct (cmp x y); tauto. Qed.

  Lemma cmp_eq_sym x y : cmp x y = Eq -> cmp y x = Eq.
  Proof. intros H. now rewrite (cmp_antisym _ P x y), H. Qed.

  Lemma insert_by_perm x l : Permutation (insert_by cmp x l) (x :: l).
  Proof.
    induction l as [|y l IH]; cbn; [reflexivity|].
    destruct (cmp x y); try reflexivity.
    rewrite IH. apply perm_swap.
  Qed.

  Lemma sort_by_perm l : Permutation l (sort_by cmp l).
  Proof.
    induction l as [|x l IH]; cbn; [reflexivity|].
    fold (sort_by cmp l). rewrite insert_by_perm. now constructor.
  Qed.

  Lemma insert_by_hd a x l : cle cmp a x -> HdRel (cle cmp) a l -> HdRel (cle cmp) a (insert_by cmp x l).
  Proof.
    intros Hax H. destruct l as [|y l]; cbn; [now constructor|].
    inversion H. subst. destruct (cmp x y); now constructor.
  Qed.

  Lemma insert_by_sorted x l : Sorted (cle cmp) l -> Sorted (cle cmp) (insert_by cmp x l).
  Proof.
    induction 1 as [|y l Hs IH Hh]; cbn; [repeat constructor|].
    destruct (cmp x y) eqn:E.
    1, 2: constructor; [now constructor|]; constructor; unfold cle; congruence.
    constructor; [exact IH|]. apply insert_by_hd; [now apply cmp_gt_cle|exact Hh].
  Qed.

  Lemma sort_by_sorted l : Sorted (cle cmp) (sort_by cmp l).
  Proof.
    induction l as [|x l IH]; cbn; [constructor|]. now apply insert_by_sorted.
  Qed.

  Lemma sorted_strong l : Sorted (cle cmp) l -> StronglySorted (cle cmp) l.
  Proof. apply Sorted_StronglySorted. intros x y z. apply cle_trans. Qed.

  Definition cleb (w y : A) : bool := match cmp w y with Gt => false | _ => true end.

  Lemma cleb_cle w y : cleb w y = true <-> cle cmp w y.
  Proof. unfold cleb, cle. destruct (cmp w y); split; congruence. Qed.

  Lemma sorted_perm_le a b p d :
    StronglySorted (cle cmp) a -> StronglySorted (cle cmp) b -> Permutation a b -> (p < length a)%nat ->
    cle cmp (nth p a d) (nth p b d).
  Proof.
    intros Sa Sb Hab Hp. assert (Hp' := Hp). rewrite (Permutation_length Hab) in Hp'.
    rewrite <- (app_nil_r a), <- (app_nil_r b) in Hab.
    apply (sorted_prefix_le (cle cmp) cleb cle_refl cle_trans cleb_cle a [] b []); try assumption; intros ? ? ? [].
  Qed.

  Lemma sorted_perm_pointwise a b p d :
    Sorted (cle cmp) a -> Sorted (cle cmp) b -> Permutation a b -> (p < length a)%nat ->
    cmp (nth p a d) (nth p b d) = Eq.
  Proof.
    intros Sa Sb Hab Hp. apply sorted_strong in Sa. apply sorted_strong in Sb.
    apply cle_antisym; apply sorted_perm_le; try assumption.
    - now symmetry.
    - now rewrite <- (Permutation_length Hab).
  Qed.
End Order.

Lemma cmp_preorder_ext {A} (c c' : A -> A -> comparison) :
  (forall a b, c a b = c' a b) -> cmp_preorder c' -> cmp_preorder c.
Proof. intros E [R S T]. constructor; intros *; rewrite !E; [apply R|apply S|apply T]. Qed.

Lemma cmp_preorder_flip {A} (c : A -> A -> comparison) :
  cmp_preorder c -> cmp_preorder (fun a b => c b a).
Proof.
  intros [R S T]. constructor.
  - intros x. apply R.
  - intros x y. apply S.
  - intros x y z H1 H2. exact (T z y x H2 H1).
Qed.

Lemma cmp_preorder_pull {A B} (f : A -> B) (c : B -> B -> comparison) :
  cmp_preorder c -> cmp_preorder (fun a b => c (f a) (f b)).
Proof.
  intros [R S T]. constructor.
  - intros x. apply R.
  - intros x y. apply S.
  - intros x y z. apply T.
Qed.

Definition cmp_then (c1 c2 : comparison) : comparison := match c1 with Eq => c2 | Lt => Lt | Gt => Gt end.

Lemma cmp_then_Eq_r c : cmp_then c Eq = c.
Proof. now destruct c. Qed.

Lemma cmp_preorder_then {A} (c1 c2 : A -> A -> comparison) :
  cmp_preorder c1 -> cmp_preorder c2 -> cmp_preorder (fun a b => cmp_then (c1 a b) (c2 a b)).
Proof.
  intros P1 P2.
  (* x <= y in the combined order: x <= y in the first, and also in the second if they tie in the first *)
  assert (L : forall x y, cmp_then (c1 x y) (c2 x y) <> Gt <-> cle c1 x y /\ (cle c1 y x -> cle c2 x y)).
  { intros x y. pose proof (cmp_spec c1 P1 x y) as S. unfold cle in *.
    destruct (c1 x y); cbn; intuition congruence. }
  constructor.
  - intros x. now rewrite (cmp_refl _ P1), (cmp_refl _ P2).
  - intros x y. rewrite (cmp_antisym _ P1 x y), (cmp_antisym _ P2 x y).
    destruct (c1 x y); reflexivity.
  - intros x y z. rewrite !L.
    pose proof (cle_trans c1 P1 x y z). pose proof (cle_trans c1 P1 y z x).
    pose proof (cle_trans c1 P1 z x y). pose proof (cle_trans c2 P2 x y z). tauto.
Qed.

(* missing values last: Some _ < None, None = None *)
Definition opt_cmp {V} (c : V -> V -> comparison) (a b : option V) : comparison :=
  match a, b with
  | Some _, None => Lt
  | None, Some _ => Gt
  | None, None => Eq
  | Some x, Some y => c x y
  end.

Lemma cmp_preorder_opt {V} (c : V -> V -> comparison) : cmp_preorder c -> cmp_preorder (opt_cmp c).
Proof.
  intros [R S T]. constructor.
  - intros [x|]; cbn; auto.
  - intros [x|] [y|]; cbn; auto.
  - intros [x|] [y|] [z|]; cbn; try congruence. apply T.
Qed.

Lemma Zcompare_preorder : cmp_preorder Z.compare.
Proof.
  constructor; [apply Z.compare_refl|apply Z.compare_antisym|].
  intros x y z. rewrite !Z.compare_le_iff. apply Z.le_trans.
Qed.

Lemma lex_compare_preorder : cmp_preorder lex_compare.
Proof.
  constructor; [apply lex_compare_refl|apply lex_compare_antisym|].
  assert (E : forall x y, lex_compare x y <> Gt <-> lex_le x y = true)
    by (intros x y; unfold lex_le; destruct (lex_compare x y); split; congruence).
  intros x y z. rewrite !E. apply KV.lex_le_trans.
Qed.

(* CompareAny is the lexicographic order on (kind, number, string): a value that is no number counts as 0,
   one that is no string as "" *)
Definition num_of (v : value) : Z :=
  match v with VInt x => x | VF64 x => f64_ord x | VF32 x => f32_ord x | _ => 0%Z end.
Definition str_of (v : value) : bytes := match v with VStr s => s | _ => [] end.

Lemma compare_any_lex a b :
  compare_any a b =
  cmp_then (kind_of a ?= kind_of b)%Z (cmp_then (num_of a ?= num_of b)%Z (lex_compare (str_of a) (str_of b))).
Proof. destruct a, b; try reflexivity; symmetry; apply cmp_then_Eq_r. Qed.

Lemma compare_any_kinds a b :
  kind_of a <> kind_of b -> compare_any a b = Z.compare (kind_of a) (kind_of b).
Proof.
  intros H. unfold compare_any.
  destruct (Z.compare_spec (kind_of a) (kind_of b)); [contradiction|reflexivity|reflexivity].
Qed.

Lemma compare_any_preorder : cmp_preorder compare_any.
Proof.
  apply (cmp_preorder_ext _ _ compare_any_lex).
  apply (cmp_preorder_then (fun a b => kind_of a ?= kind_of b)%Z);
    [apply (cmp_preorder_pull kind_of), Zcompare_preorder|].
  apply (cmp_preorder_then (fun a b => num_of a ?= num_of b)%Z (fun a b => lex_compare (str_of a) (str_of b))).
  - apply (cmp_preorder_pull num_of), Zcompare_preorder.
  - apply (cmp_preorder_pull str_of), lex_compare_preorder.
Qed.

Definition dir_cmp (desc : bool) (x y : value) : comparison := if desc then compare_any y x else compare_any x y.

Definition key_cmp (k : bytes * bool) (a b : doc) : comparison :=
  opt_cmp (dir_cmp (snd k)) (key_of (fst k) a) (key_of (fst k) b).

Lemma sort_cmp_cons k rest a b :
  sort_cmp (k :: rest) a b = cmp_then (key_cmp k a b) (sort_cmp rest a b).
Proof.
  destruct k as [p desc]. unfold key_cmp, key_of. cbn [sort_cmp fst snd].
  now destruct (access_nested (split_dots p) (VMap a)), (access_nested (split_dots p) (VMap b)).
Qed.

Lemma key_cmp_preorder k : cmp_preorder (key_cmp k).
Proof.
  apply (cmp_preorder_pull (key_of (fst k)) (opt_cmp (dir_cmp (snd k)))), cmp_preorder_opt.
  destruct (snd k); [apply (cmp_preorder_flip compare_any)|]; apply compare_any_preorder.
Qed.

Lemma sort_cmp_preorder keys : cmp_preorder (sort_cmp keys).
Proof.
  induction keys as [|k rest IH]; [constructor; cbn; intros; congruence|].
  exact (cmp_preorder_ext _ _ (sort_cmp_cons k rest) (cmp_preorder_then _ _ (key_cmp_preorder k) IH)).
Qed.

Lemma sort_cmp_app pre post a b :
  sort_cmp (pre ++ post) a b = cmp_then (sort_cmp pre a b) (sort_cmp post a b).
Proof.
  induction pre as [|k pre IH]; [reflexivity|].
  rewrite <- app_comm_cons, !sort_cmp_cons, IH.
  destruct (key_cmp k a b); reflexivity.
Qed.

Lemma key_cmp_eq_tie k a b : key_cmp k a b = Eq <-> key_tie k a b.
Proof.
  unfold key_cmp, key_tie, dir_cmp. destruct (key_of (fst k) a), (key_of (fst k) b); cbn; try tauto; try (split; [discriminate|tauto]).
  destruct (snd k); [|tauto].
  rewrite (cmp_antisym _ compare_any_preorder v v0). destruct (compare_any v v0); cbn; split; congruence.
Qed.

Lemma sort_cmp_eq_ties keys a b : sort_cmp keys a b = Eq <-> Forall (fun k => key_tie k a b) keys.
Proof.
  induction keys as [|k rest IH]; [cbn; split; [constructor|reflexivity]|].
  rewrite sort_cmp_cons, Forall_cons_iff, <- IH, <- key_cmp_eq_tie.
  destruct (key_cmp k a b); cbn; intuition congruence.
Qed.

(* exactly one of the two documents has the key: it comes first, whatever the direction *)
Lemma sort_cmp_missing p desc post a b :
  key_of p a = None -> key_of p b <> None ->
  sort_cmp ((p, desc) :: post) a b = Gt /\ sort_cmp ((p, desc) :: post) b a = Lt.
Proof.
  intros Ha Hb. unfold key_of in *. cbn [sort_cmp]. rewrite Ha.
  destruct (access_nested (split_dots p) (VMap b)); [split; reflexivity|congruence].
Qed.

Lemma eval_composite is_or sc t live qs subs :
  eval sc t live (composite is_or qs) subs =
  match eval_list sc t live qs subs with
  | None => None
  | Some ([s], [rkd], [fl], subs') => Some (s, rkd, fl, subs')
  | Some (ss, rks, _, subs') =>
      let final := set_combine is_or ss in
      Some (final, merge_ranked is_or final rks, false, subs')
  end.
Proof. destruct is_or; reflexivity. Qed.

Lemma eval_list_cons sc t live c r subs :
  eval_list sc t live (c :: r) subs =
  match eval sc t live c subs with
  | None => None
  | Some (s, rkd, fl, subs') =>
      match eval_list sc t live r subs' with
      | None => None
      | Some (ss, rks, fls, subs'') => Some (s :: ss, rkd :: rks, fl :: fls, subs'')
      end
  end.
Proof. reflexivity. Qed.

Lemma eval_list_length sc t live qs : forall subs ss rks fls subs',
  eval_list sc t live qs subs = Some (ss, rks, fls, subs') ->
  length ss = length qs /\ length rks = length qs /\ length fls = length qs.
Proof.
  induction qs as [|c r IH]; intros subs ss rks fls subs' H.
  - cbn in H. inversion H. auto.
  - rewrite eval_list_cons in H.
    destruct (eval sc t live c subs) as [[[[s rkd] fl] subs1]|]; [|discriminate].
    destruct (eval_list sc t live r subs1) as [[[[ss1 rks1] fls1] subs2]|] eqn:E; [|discriminate].
    inversion H. subst. destruct (IH _ _ _ _ _ E) as [H1 [H2 H3]]. cbn. auto.
Qed.

Lemma eval_single is_or sc t live c subs :
  eval sc t live (composite is_or [c]) subs = eval sc t live c subs.
Proof.
  rewrite eval_composite, eval_list_cons.
  destruct (eval sc t live c subs) as [[[[s rkd] fl] subs1]|]; reflexivity.
Qed.

Lemma eval_merge is_or sc t live qs subs ss rks fls subs' :
  eval_list sc t live qs subs = Some (ss, rks, fls, subs') -> (2 <= length qs)%nat ->
  eval sc t live (composite is_or qs) subs =
  Some (set_combine is_or ss, merge_ranked is_or (set_combine is_or ss) rks, false, subs').
Proof.
  intros H Hlen. rewrite eval_composite, H.
  apply eval_list_length in H. destruct H as [L _]. rewrite <- L in Hlen. clear L.
  destruct ss as [|s0 [|s1 ss]]; cbn in Hlen; [lia..|reflexivity].
Qed.

Lemma set_combine_In id is_or s0 rest :
  In id (set_combine is_or (s0 :: rest)) <->
  if is_or then Exists (In id) (s0 :: rest) else Forall (In id) (s0 :: rest).
Proof.
  cbn [set_combine]. revert s0. destruct is_or; induction rest as [|s rest IH]; intros s0; cbn [fold_left].
  - rewrite Exists_cons, Exists_nil. tauto.
  - rewrite IH, !Exists_cons, ids_union_In. tauto.
  - rewrite Forall_cons_iff, Forall_nil_iff. tauto.
  - rewrite IH, !Forall_cons_iff, ids_inter_In. tauto.
Qed.

Lemma set_combine_nodup is_or ss : Forall (@NoDup uuid) ss -> NoDup (set_combine is_or ss).
Proof.
  destruct ss as [|s0 rest]; cbn; [constructor|]. rewrite Forall_cons_iff, Forall_forall. intros [H0 Hr].
  apply fold_left_inv; [|exact H0]. intros acc s Hs Hacc.
  destruct is_or; [apply ids_union_NoDup; auto|now apply NoDup_filter].
Qed.

(* the map a nested assignment descends into *)
Definition sub_at (s : bytes) (d : doc) : option doc :=
  match doc_get s d with None => Some [] | Some (VMap sub) => Some sub | Some _ => None end.

Lemma set_nested_deep s s2 rest v d :
  set_nested (s :: s2 :: rest) v d =
  match sub_at s d with
  | Some sub => match set_nested (s2 :: rest) v sub with
                | Some sub' => Some (doc_set s (VMap sub') d)
                | None => None
                end
  | None => None
  end.
Proof.
  unfold sub_at. cbn [set_nested]. destruct (doc_get s d) as [[]|]; reflexivity.
Qed.

Lemma set_nested_inv s rest v d d' :
  set_nested (s :: rest) v d = Some d' ->
  match rest with
  | [] => d' = doc_set s v d
  | _ => exists sub sub', sub_at s d = Some sub /\ set_nested rest v sub = Some sub' /\ d' = doc_set s (VMap sub') d
  end.
Proof.
  destruct rest as [|s2 rest]; [cbn; congruence|]. rewrite set_nested_deep.
  destruct (sub_at s d) as [sub|]; [|discriminate].
  destruct (set_nested (s2 :: rest) v sub) as [sub'|] eqn:E; [|discriminate].
  intros [= <-]. eauto.
Qed.

Lemma set_nested_shape s rest v d d' :
  set_nested (s :: rest) v d = Some d' -> exists w, d' = doc_set s w d.
Proof.
  intros H. apply set_nested_inv in H. destruct rest; [eauto|].
  destruct H as (sub & sub' & _ & _ & ->). eauto.
Qed.

Lemma set_nested_keys segs v d d' k :
  set_nested segs v d = Some d' -> In k (map fst d') -> In k (map fst d) \/ k = hd [] segs.
Proof.
  destruct segs as [|s rest].
  - cbn. intros H. inversion H. auto.
  - intros H. destruct (set_nested_shape _ _ _ _ _ H) as [w ->]. unfold doc_set. cbn.
    intros [<-|Hk]; [auto|]. left. eapply doc_remove_keys. eassumption.
Qed.

Lemma query_doc_set s' rest' s w d :
  s' <> [] ->
  query_path (s' :: rest') (VMap (doc_set s w d)) =
  if bytes_eqb s' s then query_path rest' w else query_path (s' :: rest') (VMap d).
Proof.
  intros Hs. rewrite !query_map_step, doc_get_set by assumption. now destruct (bytes_eqb s' s).
Qed.

Lemma set_nested_read segs : forall v d d',
  segs <> [] -> plain_segs segs -> set_nested segs v d = Some d' ->
  query_path segs (VMap d') = QFound v.
Proof.
  induction segs as [|s rest IH]; intros v d d' Hne Hp H; [congruence|].
  inversion Hp as [|? ? Hs Hrest]. subst. apply set_nested_inv in H.
  destruct rest as [|s2 rest]; [|destruct H as (sub & sub' & _ & H & ->)]; subst;
    rewrite query_doc_set, bytes_eqb_refl by assumption; [reflexivity|].
  now apply (IH v sub sub').
Qed.

Lemma seg_prefix_refl a : seg_prefix a a.
Proof. induction a; cbn; auto. Qed.

Lemma seg_disjoint_sym a b : seg_disjoint a b -> seg_disjoint b a.
Proof. unfold seg_disjoint. tauto. Qed.

(* reading under a key that is absent is reading in the empty map *)
Lemma query_sub_at s r rest d sub :
  s <> [] -> plain_segs (r :: rest) -> sub_at s d = Some sub ->
  query_path (s :: r :: rest) (VMap d) = query_path (r :: rest) (VMap sub).
Proof.
  intros Hs Hp. unfold sub_at. rewrite query_map_step by assumption.
  destruct (doc_get s d) as [[]|]; intros [= <-]; [reflexivity|].
  inversion Hp. now rewrite query_map_step.
Qed.

Lemma set_nested_other segs : forall segs' v d d',
  plain_segs segs' -> seg_disjoint segs segs' -> set_nested segs v d = Some d' ->
  query_path segs' (VMap d') = query_path segs' (VMap d).
Proof.
  induction segs as [|s rest IH]; intros segs' v d d' Hp [D1 D2] H; [destruct (D1 I)|].
  destruct segs' as [|s' rest']; [destruct (D2 I)|].
  inversion Hp as [|? ? Hs' Hrest']. subst.
  destruct (bytes_eqb_spec s' s) as [->|Hne].
  - apply set_nested_inv in H. destruct rest as [|s2 rest], rest' as [|r1 rest']; cbn in D1, D2; try tauto.
    destruct H as (sub & sub' & G & H & ->).
    rewrite query_doc_set, bytes_eqb_refl, (query_sub_at _ _ _ _ sub) by assumption.
    apply (IH _ v sub sub'); [assumption|split; tauto|assumption].
  - destruct (set_nested_shape _ _ _ _ _ H) as [w ->]. rewrite query_doc_set by assumption.
    destruct (bytes_eqb_spec s' s); [contradiction|reflexivity].
Qed.

Lemma star_neq p : p <> star -> bytes_eqb p [42] = false.
Proof. intros H. now destruct (bytes_eqb_spec p [42]). Qed.

(* select_go changes the accumulator only under the paths that are stored in d *)
Lemma select_go_inv paths : forall d acc r,
  plain_paths paths -> select_go paths d acc = Some r ->
  (forall p v, In p paths -> query_path (split_dots p) (VMap d) = QFound v ->
               query_path (split_dots p) (VMap r) = QFound v) /\
  (forall segs', plain_segs segs' ->
                 (forall p v, In p paths -> query_path (split_dots p) (VMap d) = QFound v ->
                              seg_disjoint (split_dots p) segs') ->
                 query_path segs' (VMap r) = query_path segs' (VMap acc)) /\
  (forall k, In k (map fst r) ->
             In k (map fst acc) \/
             exists p v, In p paths /\ query_path (split_dots p) (VMap d) = QFound v /\ hd [] (split_dots p) = k).
Proof.
  induction paths as [|p rest IH]; intros d acc r [HF HO] H.
  - injection H as <-. repeat split; [intros ? ? []|auto].
  - inversion HF as [|? ? [Hstar Hplain] HF']. inversion HO as [|? ? Hdis HO']. subst.
    rewrite Forall_forall in Hdis.
    cbn [select_go] in H. rewrite (star_neq _ Hstar) in H.
    destruct (query_path (split_dots p) (VMap d)) as [| |v] eqn:Q; [discriminate| |].
    + (* not stored: skipped *)
      destruct (IH d acc r (conj HF' HO') H) as (A & C & D). split; [|split].
      * intros p' v' [<-|Hin] Hq; [congruence|eauto].
      * intros segs' Hp' Hall. apply C; [assumption|]. intros q w Hq. apply Hall. now right.
      * intros k Hk. destruct (D k Hk) as [H1|(q & w & H1 & H2)]; [auto|].
        right. exists q, w. split; [now right|assumption].
    + (* stored: assigned; the later steps do not touch it *)
      destruct (set_nested (split_dots p) v acc) as [acc'|] eqn:S; [|discriminate].
      destruct (IH d acc' r (conj HF' HO') H) as (A & C & D). split; [|split].
      * intros p' v' [<-|Hin] Hq; [|eauto]. rewrite Q in Hq. injection Hq as <-.
        rewrite C; [|assumption|intros q w Hq _; apply seg_disjoint_sym, Hdis, Hq].
        apply (set_nested_read _ _ _ _ (split_dots_nonempty p) Hplain S).
      * intros segs' Hp' Hall. rewrite C; [|assumption|intros q w Hq; apply Hall; now right].
        apply (set_nested_other _ _ _ _ _ Hp' (Hall p v (or_introl eq_refl) Q) S).
      * intros k Hk. destruct (D k Hk) as [H1|(q & w & H1 & H2)].
        -- destruct (set_nested_keys _ _ _ _ _ S H1) as [H2| ->]; [auto|].
           right. exists p, v. split; [now left|auto].
        -- right. exists q, w. split; [now right|assumption].
Qed.

Lemma select_go_absent paths d acc r p :
  plain_paths paths -> select_go paths d acc = Some r ->
  In p paths -> query_path (split_dots p) (VMap d) = QAbsent ->
  query_path (split_dots p) (VMap r) = query_path (split_dots p) (VMap acc).
Proof.
  intros PP H Hin Hq. destruct (select_go_inv paths d acc r PP H) as (_ & C & _). destruct PP as [HF HO].
  rewrite Forall_forall in HF. apply C; [apply (HF p Hin)|]. intros q v Hq' Hv.
  destruct (ForallOrdPairs_In HO _ _ Hq' Hin) as [->|[D|D]]; [congruence|exact D|now apply seg_disjoint_sym].
Qed.

Lemma query_empty p : plain_segs (split_dots p) -> query_path (split_dots p) (VMap []) = QAbsent.
Proof.
  intros Hp. pose proof (split_dots_nonempty p) as Hne.
  destruct (split_dots p); [congruence|]. inversion Hp. now rewrite query_map_step.
Qed.

Lemma fold_set_rev d : forall acc,
  NoDup (map fst d) -> (forall k, In k (map fst d) -> ~ In k (map fst acc)) ->
  fold_left (fun a kv => doc_set (fst kv) (snd kv) a) d acc = rev d ++ acc.
Proof.
  induction d as [|[k v] d IH]; intros acc ND Hd; cbn; [reflexivity|].
  inversion ND as [|? ? Hn ND']. subst.
  unfold doc_set at 2. cbn [fst snd]. rewrite (doc_remove_notin k acc) by (apply Hd; now left).
  rewrite IH; [now rewrite <- app_assoc|assumption|].
  intros k' Hk' [<-|H]; [contradiction|]. apply (Hd k'); [now right|assumption].
Qed.

Lemma doc_eqb_perm a b : NoDup (map fst a) -> Permutation a b -> doc_eqb a b = true.
Proof.
  intros ND HP.
  assert (NDb : NoDup (map fst b)) by (apply (Permutation_NoDup (Permutation_map fst HP) ND)).
  unfold doc_eqb. rewrite (Permutation_length HP), Nat.eqb_refl, !doc_sub_incl; try assumption; try reflexivity.
  - intros kv. apply Permutation_in. now symmetry.
  - intros kv. now apply Permutation_in.
Qed.

Lemma select_star d : NoDup (map fst d) ->
  exists r, select_doc [star] d = Some r /\ doc_eqb r d = true /\ doc_eqb d r = true.
Proof.
  intros ND. exists (rev d). split; [|split].
  - unfold select_doc, star. cbn. f_equal. rewrite fold_set_rev; [apply app_nil_r|assumption|].
    intros k _ [].
  - apply doc_eqb_perm; [|symmetry; apply Permutation_rev]. rewrite map_rev. now apply NoDup_rev.
  - apply doc_eqb_perm; [assumption|apply Permutation_rev].
Qed.

Lemma Qcompare_preorder : cmp_preorder Qcompare.
Proof.
  constructor.
  - intros x. now apply Qeq_alt.
  - intros x y. symmetry. apply Qcompare_antisym.
  - intros x y z. rewrite <- !Qle_alt. apply Qle_trans.
Qed.

Lemma desc_cmp_compare a b : desc_cmp a b = (b ?= a)%Q.
Proof.
  unfold desc_cmp. symmetry.
  destruct (Qltb b a) eqn:E1; [now apply Qlt_alt, Qltb_lt|].
  destruct (Qltb a b) eqn:E2; [now apply Qgt_alt, Qltb_lt|].
  apply Qeq_alt, Qle_antisym; apply Qnot_lt_le; rewrite <- Qltb_lt; congruence.
Qed.
