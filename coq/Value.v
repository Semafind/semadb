(* Value.v -- document trees as semadb stores them (msgpack maps decoded by
   vmihailenco/msgpack), the path query used for index extraction and select,
   shallow merge, and the encoded size. *)
From Coq Require Import List NArith ZArith Bool Lia.
From Semadb Require Import ListFacts Bytes.
Import ListNotations.
Open Scope N_scope.

Inductive value : Type :=
| VNil
| VBool (b : bool)
| VInt (z : Z)                (* an int64-coded integer *)
| VF64 (bits : N)
| VF32 (bits : N)
| VStr (s : bytes)
| VArr (l : list value)
| VMap (l : list (bytes * value)).

Definition doc := list (bytes * value).

(* induction principle through the nested lists *)
Section ValueInd.
  Variable P : value -> Prop.
  Hypothesis HNil : P VNil.
  Hypothesis HBool : forall b, P (VBool b).
  Hypothesis HInt : forall z, P (VInt z).
  Hypothesis HF64 : forall b, P (VF64 b).
  Hypothesis HF32 : forall b, P (VF32 b).
  Hypothesis HStr : forall s, P (VStr s).
  Hypothesis HArr : forall l, Forall P l -> P (VArr l).
  Hypothesis HMap : forall l, Forall (fun kv => P (snd kv)) l -> P (VMap l).
  Fixpoint value_ind' (v : value) : P v :=
    match v with
    | VNil => HNil | VBool b => HBool b | VInt z => HInt z | VF64 b => HF64 b | VF32 b => HF32 b
    | VStr s => HStr s
    | VArr l => HArr l ((fix go (l : list value) : Forall P l :=
                           match l with [] => Forall_nil _ | x :: r => Forall_cons _ (value_ind' x) (go r) end) l)
    | VMap l => HMap l ((fix go (l : list (bytes * value)) : Forall (fun kv => P (snd kv)) l :=
                           match l with [] => Forall_nil _ | x :: r => Forall_cons _ (value_ind' (snd x)) (go r) end) l)
    end.
End ValueInd.

Fixpoint list_eqb {A} (eq : A -> A -> bool) (a b : list A) : bool :=
  match a, b with
  | [], [] => true
  | x :: a', y :: b' => eq x y && list_eqb eq a' b'
  | _, _ => false
  end.

Fixpoint value_eqb (a b : value) : bool :=
  match a, b with
  | VNil, VNil => true
  | VBool x, VBool y => Bool.eqb x y
  | VInt x, VInt y => (x =? y)%Z
  | VF64 x, VF64 y => x =? y
  | VF32 x, VF32 y => x =? y
  | VStr x, VStr y => bytes_eqb x y
  | VArr x, VArr y =>
      (fix go (x y : list value) : bool :=
         match x, y with
         | [], [] => true
         | u :: x', v :: y' => value_eqb u v && go x' y'
         | _, _ => false
         end) x y
  | VMap x, VMap y =>
      (fix go (x y : list (bytes * value)) : bool :=
         match x, y with
         | [], [] => true
         | (k1, u) :: x', (k2, v) :: y' => bytes_eqb k1 k2 && value_eqb u v && go x' y'
         | _, _ => false
         end) x y
  | _, _ => false
  end.

Lemma value_eqb_eq a b : value_eqb a b = true <-> a = b.
Proof.
  revert b. induction a using value_ind'; intros w; destruct w; cbn; try (split; congruence).
  1-5: rewrite ?Bool.eqb_true_iff, ?Z.eqb_eq, ?N.eqb_eq, ?bytes_eqb_eq; split; congruence.
  - revert l0. induction H as [|x l Hx _ IH]; intros [|y l0]; try (split; congruence).
    rewrite andb_true_iff, Hx, IH. split.
    + intros [-> E]. inversion E. reflexivity.
    + intros E; inversion E; auto.
  - revert l0. induction H as [|[k1 x] l Hx _ IH]; intros [|[k2 y] l0]; try (split; congruence).
    cbn in Hx. rewrite !andb_true_iff, bytes_eqb_eq, Hx, IH. split.
    + intros [[-> ->] E]. inversion E. reflexivity.
    + intros E; inversion E; auto.
Qed.

(* documents at top level are Go maps: unique keys, no order *)
Fixpoint doc_get (k : bytes) (d : doc) : option value :=
  match d with
  | [] => None
  | (k', v) :: r => if bytes_eqb k k' then Some v else doc_get k r
  end.
Fixpoint doc_remove (k : bytes) (d : doc) : doc :=
  match d with
  | [] => []
  | (k', v) :: r => if bytes_eqb k k' then doc_remove k r else (k', v) :: doc_remove k r
  end.
Definition doc_set (k : bytes) (v : value) (d : doc) : doc := (k, v) :: doc_remove k d.

Definition doc_keys (d : doc) : list bytes := map fst d.

Definition doc_sub (a b : doc) : bool :=
  forallb (fun kv => match doc_get (fst kv) b with Some v => value_eqb (snd kv) v | None => false end) a.
(* equality of documents as maps (order of keys irrelevant) *)
Definition doc_eqb (a b : doc) : bool :=
  (length a =? length b)%nat && doc_sub a b && doc_sub b a.

Lemma doc_get_remove k k' d : doc_get k (doc_remove k' d) = if bytes_eqb k k' then None else doc_get k d.
Proof. exact (aget_adel bytes_eqb_spec k k' d). Qed.

Lemma doc_get_set k k' v d : doc_get k (doc_set k' v d) = if bytes_eqb k k' then Some v else doc_get k d.
Proof. exact (aget_aput bytes_eqb_spec k k' v d). Qed.

Lemma doc_get_In k v d : NoDup (map fst d) -> In (k, v) d -> doc_get k d = Some v.
Proof. exact (In_aget bytes_eqb_spec k v d). Qed.

Lemma doc_remove_keys k x d : In x (map fst (doc_remove k d)) -> In x (map fst d).
Proof.
  intros H. apply in_map_iff in H as (kv & <- & H). apply (adel_In bytes_eqb_spec) in H as [H _].
  exact (in_map fst _ _ H).
Qed.

Lemma doc_remove_notin k d : ~ In k (map fst d) -> doc_remove k d = d.
Proof. intros H. now apply (adel_absent k d), (aget_notin bytes_eqb_spec). Qed.

Lemma doc_sub_incl a b : NoDup (map fst b) -> incl a b -> doc_sub a b = true.
Proof.
  intros ND H. apply forallb_forall. intros [k v] Hkv. cbn.
  rewrite (doc_get_In k v b ND (H _ Hkv)). now apply value_eqb_eq.
Qed.

(* shard.UpdatePoints: for k,v in incoming: "_delete" string removes, else overwrite *)
Definition merge_doc (delete_marker : bytes) (existing incoming : doc) : doc :=
  fold_left (fun acc kv =>
               match snd kv with
               | VStr s => if bytes_eqb s delete_marker then doc_remove (fst kv) acc else doc_set (fst kv) (snd kv) acc
               | v => doc_set (fst kv) v acc
               end) incoming existing.

(* msgpack Decoder.Query on a value (no '*' segments) *)
Inductive qres := QErr | QAbsent | QFound (v : value).

(* decimal index of a path segment (strconv.Atoi of a non-negative number) *)
Fixpoint atoi_acc (s : bytes) (acc : N) : option N :=
  match s with
  | [] => Some acc
  | c :: r => if (48 <=? c) && (c <=? 57) then atoi_acc r (acc * 10 + (c - 48)) else None
  end.
Definition atoi (s : bytes) : option N :=
  match s with [] => None | _ => atoi_acc s 0 end.

Fixpoint map_first (k : bytes) (l : list (bytes * value)) : option value :=
  match l with
  | [] => None
  | (k', v) :: r => if bytes_eqb k k' then Some v else map_first k r
  end.

Lemma map_first_get k d : map_first k d = doc_get k d.
Proof. reflexivity. Qed.

(* segments: the dot-separated parts of the path. An empty segment returns the whole subtree. *)
Fixpoint query_path (segs : list bytes) (v : value) : qres :=
  match segs with
  | [] => QFound v
  | [] :: _ => QFound v
  | s :: rest =>
      match v with
      | VMap l => match map_first s l with
                  | Some v' => query_path rest v'
                  | None => QAbsent
                  end
      | VArr l => match atoi s with
                  | None => QErr
                  | Some i => match nth_error l (N.to_nat i) with
                              | Some v' => query_path rest v'
                              | None => QAbsent
                              end
                  end
      | _ => QErr
      end
  end.

Lemma query_map_step s rest l :
  s <> [] ->
  query_path (s :: rest) (VMap l) =
  match doc_get s l with Some v' => query_path rest v' | None => QAbsent end.
Proof. intros Hs. destruct s; [congruence|]. cbn. now rewrite map_first_get. Qed.

Fixpoint split_dots_acc (s cur : bytes) : list bytes :=
  match s with
  | [] => [rev cur]
  | c :: r => if c =? 46 then rev cur :: split_dots_acc r [] else split_dots_acc r (c :: cur)
  end.
Definition split_dots (s : bytes) : list bytes := split_dots_acc s [].

Lemma split_dots_nonempty p : split_dots p <> [].
Proof.
  unfold split_dots. generalize (@nil N) as cur.
  induction p as [|c p IH]; intros cur; cbn; [discriminate|].
  destruct (c =? 46); [discriminate|apply IH].
Qed.

(* the property value the index dispatcher sees: nil and absent are both "not present" *)
Definition prop_value (path : bytes) (d : doc) : qres :=
  match query_path (split_dots path) (VMap d) with
  | QFound VNil => QAbsent
  | r => r
  end.

(* encoded size (vmihailenco/msgpack v5, default encoder flags) *)
Definition str_hdr (n : N) : N := if n <? 32 then 1 else if n <? 256 then 2 else if n <=? 65535 then 3 else 5.
Definition seq_hdr (n : N) : N := if n <? 16 then 1 else if n <=? 65535 then 3 else 5.
Definition blen (s : bytes) : N := N.of_nat (length s).

Fixpoint msize (v : value) : N :=
  match v with
  | VNil => 1 | VBool _ => 1 | VInt _ => 9 | VF64 _ => 9 | VF32 _ => 5
  | VStr s => str_hdr (blen s) + blen s
  | VArr l => seq_hdr (N.of_nat (length l)) + fold_right (fun x acc => msize x + acc) 0 l
  | VMap l => seq_hdr (N.of_nat (length l)) +
              fold_right (fun kv acc => str_hdr (blen (fst kv)) + blen (fst kv) + msize (snd kv) + acc) 0 l
  end.
Definition doc_size (d : doc) : N := msize (VMap d).
