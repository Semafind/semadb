(* Dyadic.v -- exact values of IEEE-754 binary32 / binary64 bit patterns as
   rationals (finite values only), for judging reported distances and scores. *)
From Coq Require Import NArith ZArith QArith Bool List.
Import ListNotations.
Open Scope Z_scope.

(* value = m * 2^e *)
Definition dy_to_Q (m e : Z) : Q :=
  if 0 <=? e then inject_Z (m * 2 ^ e) else Qmake m (Z.to_pos (2 ^ (- e))).

Definition f32_sign (b : N) : bool := (2147483648 <=? b)%N.
Definition f32_exp (b : N) : Z := Z.of_N ((b / 8388608) mod 256)%N.
Definition f32_mant (b : N) : Z := Z.of_N (b mod 8388608)%N.
Definition f32_finite (b : N) : bool := negb (f32_exp b =? 255).
Definition f32_is_nan (b : N) : bool := (f32_exp b =? 255) && negb (f32_mant b =? 0).

(* exact rational value of a finite float32; infinities map to a huge sentinel so that
   comparisons still order them last/first *)
Definition f32_to_Q (b : N) : Q :=
  let s := if f32_sign b then (-1) else 1 in
  let e := f32_exp b in
  let m := f32_mant b in
  if e =? 255 then inject_Z (s * 2 ^ 200)
  else if e =? 0 then dy_to_Q (s * m) (-149)
  else dy_to_Q (s * (m + 8388608)) (e - 150).

Definition f64_sign (b : N) : bool := (9223372036854775808 <=? b)%N.
Definition f64_exp (b : N) : Z := Z.of_N ((b / 4503599627370496) mod 2048)%N.
Definition f64_mant (b : N) : Z := Z.of_N (b mod 4503599627370496)%N.
Definition f64_to_Q (b : N) : Q :=
  let s := if f64_sign b then (-1) else 1 in
  let e := f64_exp b in
  let m := f64_mant b in
  if e =? 2047 then inject_Z (s * 2 ^ 1200)
  else if e =? 0 then dy_to_Q (s * m) (-1074)
  else dy_to_Q (s * (m + 4503599627370496)) (e - 1075).

Definition Qeqb (a b : Q) : bool := Qeq_bool a b.
Definition Qleb (a b : Q) : bool := Qle_bool a b.
Definition Qltb (a b : Q) : bool := Qle_bool a b && negb (Qeq_bool a b).
Definition Qabs' (a : Q) : Q := if Qle_bool 0 a then a else Qopp a.
(* |a - b| <= tol *)
Definition Qclose (tol a b : Q) : bool := Qle_bool (Qabs' (a - b)) tol.
(* relative: |a - b| <= tol * max(1,|b|) *)
Definition Qclose_rel (tol a b : Q) : bool :=
  let sc := if Qle_bool 1 (Qabs' b) then Qabs' b else 1%Q in
  Qle_bool (Qabs' (a - b)) (tol * sc).

(* a float32 holding exactly the integer z *)
Definition f32_is_Z (b : N) (z : Z) : bool := f32_finite b && Qeqb (f32_to_Q b) (inject_Z z).

Example f32_one : f32_to_Q 1065353216 == 1. Proof. reflexivity. Qed.
Example f32_m25 : f32_to_Q 3223322624 == -(5#2). Proof. reflexivity. Qed.
Example f64_half : f64_to_Q 4602678819172646912 == 1#2. Proof. reflexivity. Qed.

Lemma Qle_bool_false a b : Qle_bool a b = false -> (b < a)%Q.
Proof. intros H. apply Qnot_le_lt. intros L. apply Qle_bool_iff in L. congruence. Qed.

Lemma Qltb_lt a b : Qltb a b = true <-> (a < b)%Q.
Proof.
  unfold Qltb. now rewrite andb_true_iff, negb_true_iff, <- not_true_iff_false, Qle_bool_iff, Qeq_bool_iff, Qlt_leneq.
Qed.
