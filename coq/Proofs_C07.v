(* Proofs_C07.v -- lemmas for C07 (a write batch is all-or-nothing). *)
From Coq Require Import List NArith Bool Arith Lia.
From Semadb Require Import ListFacts Bytes Value Obs KeyLayout Model_C01 Proofs_C01 Model_C07.
Import ListNotations.
Local Open Scope nat_scope.

Lemma alookup_aget {A} k (l : list (bytes * A)) : alookup k l = aget bytes_eqb k l.
Proof. induction l as [|[i a] l IH]; cbn; [|rewrite IH]; reflexivity. Qed.
Lemma aremove_adel {A} k (l : list (bytes * A)) : aremove k l = adel bytes_eqb k l.
Proof. induction l as [|[i a] l IH]; cbn; [|rewrite IH]; reflexivity. Qed.

Lemma alookup_aremove {A} k k' (l : list (bytes * A)) :
  alookup k (aremove k' l) = if bytes_eqb k k' then None else alookup k l.
Proof. rewrite !alookup_aget, aremove_adel. apply aget_adel, bytes_eqb_spec. Qed.
Lemma alookup_aset {A} k k' (a : A) l :
  alookup k (aset k' a l) = if bytes_eqb k k' then Some a else alookup k l.
Proof. unfold aset. rewrite !alookup_aget, aremove_adel. apply aget_aput, bytes_eqb_spec. Qed.
Lemma alookup_In {A} k (l : list (bytes * A)) a : alookup k l = Some a -> In (k, a) l.
Proof. rewrite alookup_aget. apply aget_In, bytes_eqb_spec. Qed.
Lemma alookup_filter {A} (P : bytes -> bool) c (l : list (bytes * A)) :
  alookup c (filter (fun e => P (fst e)) l) = if P c then alookup c l else None.
Proof.
  induction l as [|[k a] l IH]; cbn [filter alookup fst]; [now destruct (P c)|].
  destruct (P k) eqn:Pk; cbn [alookup]; rewrite IH; destruct (bytes_eqb_spec c k) as [->|]; try reflexivity;
    now rewrite Pk.
Qed.

Lemma d_bucket_aset d b b' x : d_bucket (aset b x d) b' = if bytes_eqb b' b then x else d_bucket d b'.
Proof. unfold d_bucket. rewrite alookup_aset. now destruct (bytes_eqb b' b). Qed.

Lemma d_get_put d b k v b' k' :
  d_get (d_put d b k v) b' k' = if bytes_eqb b' b && bytes_eqb k' k then Some v else d_get d b' k'.
Proof.
  unfold d_get, d_put. rewrite d_bucket_aset. destruct (bytes_eqb_spec b' b) as [->|]; [apply alookup_aset|reflexivity].
Qed.
Lemma d_get_del d b k b' k' :
  d_get (d_del d b k) b' k' = if bytes_eqb b' b && bytes_eqb k' k then None else d_get d b' k'.
Proof.
  unfold d_get, d_del. rewrite d_bucket_aset. destruct (bytes_eqb_spec b' b) as [->|]; [apply alookup_aremove|reflexivity].
Qed.
Lemma d_get_apply_wr cur b k o c k' :
  d_get (apply_wr (b, k, o) cur) c k' = if bytes_eqb c b && bytes_eqb k' k then o else d_get cur c k'.
Proof. destruct o; [apply d_get_put|apply d_get_del]. Qed.

Lemma materialize_get d ov b k :
  d_get (materialize d ov) b k = match ov_find b k ov with Some o => o | None => d_get d b k end.
Proof.
  induction ov as [|[[b' k'] o] ov IH]; [reflexivity|]. cbn [ov_find].
  change (materialize d ((b', k', o) :: ov)) with (apply_wr (b', k', o) (materialize d ov)).
  rewrite d_get_apply_wr. now destruct (bytes_eqb b b' && bytes_eqb k k').
Qed.

Lemma ov_find_none b k ov : (forall k' o, ~ In (b, k', o) ov) -> ov_find b k ov = None.
Proof.
  induction ov as [|[[b' k'] o] ov IH]; intros H; cbn [ov_find]; [reflexivity|].
  destruct (bytes_eqb_spec b b') as [->|]; [destruct (bytes_eqb_spec k k') as [->|]|]; cbn [andb];
    try (apply IH; intros k2 o2 Hin; apply (H k2 o2); now right).
  destruct (H k' o). now left.
Qed.

Lemma observe_ext st1 st2 : (forall r, read1 st1 r = read1 st2 r) -> forall q, observe st1 q = observe st2 q.
Proof.
  intros H q. unfold observe. generalize (@nil res).
  induction q as [|f q IH]; intros v; cbn [observe_from]; [reflexivity|]. rewrite H. apply IH.
Qed.

(* cs' has lost some of the usable caches of cs and gained none *)
Definition fewer (cs' cs : caches) : Prop := forall c, usable cs' c = None \/ usable cs' c = usable cs c.

(* what a usable cache of a coherent state answers the file answers too *)
Lemma read1_fewer st cs' r : coh st -> fewer cs' (snd st) -> read1 (fst st, cs') r = read1 st r.
Proof.
  intros Hc H. destruct r as [b k|b]; cbn [read1 fst snd]; [|reflexivity].
  destruct (H b) as [-> | ->]; [|reflexivity].
  destruct (usable (snd st) b) as [x|] eqn:U; [|reflexivity].
  destruct (alookup k x) as [o|] eqn:L; [|reflexivity]. now rewrite (Hc b x U k o L).
Qed.

Lemma observe_cold st q : coh st -> observe (cold st) q = observe st q.
Proof. intros Hc. apply observe_ext. intros r. apply read1_fewer; [exact Hc|]. intros c. now left. Qed.

Lemma unchanged_fewer st cs' : coh st -> fewer cs' (snd st) -> unchanged st (fst st) cs'.
Proof.
  intros Hc H. split; [reflexivity|]. split; [|split; intros q].
  - intros c x U. cbn [fst snd] in *. destruct (H c) as [E|E]; [congruence|]. apply Hc. congruence.
  - apply observe_ext. intros r. now apply read1_fewer.
  - apply (observe_cold st q Hc).
Qed.

Lemma coh_cold d : coh (d, []).
Proof. intros c x U. unfold usable in U. cbn in U. discriminate. Qed.

Lemma entries_okb_sound d c x :
  entries_okb d c x = true -> forall k o, alookup k x = Some o -> d_get d c k = o.
Proof.
  unfold entries_okb. rewrite forallb_forall. intros H k o L. apply alookup_In, H in L. cbn [fst snd] in L.
  destruct (d_get d c k), o; cbn in L; try discriminate; [|reflexivity]. apply bytes_eqb_eq in L. now subst.
Qed.

Lemma usable_In cs c x : usable cs c = Some x -> In (c, (x, false)) cs.
Proof.
  unfold usable. destruct (alookup c cs) as [[y [|]]|] eqn:L; try discriminate.
  intros [= ->]. now apply alookup_In.
Qed.

Lemma cohb_sound st : cohb st = true -> coh st.
Proof.
  unfold cohb. rewrite forallb_forall. intros H c x U. apply usable_In, H in U. now apply entries_okb_sound.
Qed.

Lemma mirrors_finalb_sound cs0 d t : mirrors_finalb cs0 d t = true -> mirrors_final cs0 d t.
Proof.
  unfold mirrors_finalb. rewrite andb_true_iff, !forallb_forall. intros [H1 H2]. split.
  - intros b k o Hin. apply H1 in Hin. cbn [fst] in Hin. apply orb_true_iff in Hin as [Hm|Hu].
    + left. now apply existsb_bytes_In.
    + right. now destruct (usable cs0 b).
  - intros c x Hw U. apply usable_In, H2 in U. cbn [fst snd] in U.
    apply existsb_bytes_In in Hw. unfold mem in U. rewrite Hw in U. now apply entries_okb_sound.
Qed.

(* a transaction changes only caches it has write access to *)
Definition frame (cs0 : caches) (t : txs) : Prop :=
  forall c, ~ In c (t_wr t) -> alookup c (t_cs t) = alookup c cs0.

Lemma frame_tx0 cs : frame cs (tx0 cs).
Proof. intros c _. reflexivity. Qed.

Lemma frame_touch cs0 t c x r : frame cs0 t -> frame cs0 (touch t c x r).
Proof.
  intros F c' Hn. cbn [touch t_wr t_cs] in *. rewrite alookup_aset.
  destruct (bytes_eqb_spec c' c) as [->|]; [destruct Hn; now left|]. apply F. intros Hin. apply Hn. now right.
Qed.

Lemma frame_exec d cs0 t o : frame cs0 t -> frame cs0 (exec_op d t o).
Proof.
  intros F. destruct o as [b k|b k v|b k|b|c k|c k o]; cbn [exec_op]; try exact F; [|now apply frame_touch].
  destruct (alookup k (cache_entries (t_cs t) c)); now apply frame_touch.
Qed.

Lemma frame_exec_all d cs0 p : forall t, frame cs0 t -> frame cs0 (exec_all d p t).
Proof.
  induction p as [|f p IH]; intros t F; cbn [exec_all]; [exact F|]. apply IH. now apply frame_exec.
Qed.

(* where the callback can stop when tf is the state after all operations: there, at a fault (a kill can be
   pending only if one was scheduled), or at a scheduled kill *)
Definition stops (cs0 : caches) (crash : option nat) (tf : txs) (r : stop) : Prop :=
  match r with
  | RDone t' => t' = tf
  | RFault t' _ c' => frame cs0 t' /\ (crash = None -> c' = None)
  | RCrash => crash <> None
  end.

Lemma stops_dec cs0 crash tf r : stops cs0 (dec crash) tf r -> stops cs0 crash tf r.
Proof.
  assert (Hd : crash = None -> dec crash = None) by now intros ->.
  destruct r; cbn [stops]; [auto|intros [F H]; auto|auto].
Qed.

Lemma run_ops_spec d cs0 p : forall fault crash t, frame cs0 t ->
  stops cs0 crash (exec_all d p t) (run_ops d fault crash p t).
Proof.
  induction p as [|f p IH]; intros fault crash t F; cbn [run_ops exec_all]; [reflexivity|].
  assert (Hrec : forall fault', stops cs0 crash (exec_all d p (exec_op d t (f (t_view t))))
                                      (run_ops d fault' (dec crash) p (exec_op d t (f (t_view t)))))
    by (intros fault'; apply stops_dec, IH, frame_exec, F).
  destruct crash as [[|n]|]; [discriminate| |];
    (destruct (failable _); [destruct fault as [[|m]|]; [now split| |]|]; apply Hrec).
Qed.

Lemma run_ops_none d p : forall t, run_ops d None None p t = RDone (exec_all d p t).
Proof.
  induction p as [|f p IH]; intros t; cbn [run_ops exec_all dec]; [reflexivity|].
  destruct (failable (f (t_view t))); apply IH.
Qed.

Lemma usable_scrap cs0 t c : frame cs0 t ->
  usable (scrap (t_wr t) (t_cs t)) c = if mem c (t_wr t) then None else usable cs0 c.
Proof.
  intros F. unfold usable, scrap. rewrite (alookup_filter (fun c => negb (mem c (t_wr t)))).
  destruct (mem c (t_wr t)) eqn:M; cbn [negb]; [reflexivity|]. apply existsb_bytes_notIn in M. now rewrite (F c M).
Qed.

Lemma abort_unchanged st t : coh st -> frame (snd st) t -> unchanged st (fst st) (scrap (t_wr t) (t_cs t)).
Proof.
  intros Hc F. apply unchanged_fewer; [exact Hc|]. intros c. rewrite (usable_scrap _ _ _ F).
  destruct (mem c (t_wr t)); auto.
Qed.

(* the call reports an error (overlay dropped, written caches scrapped), the process is killed at an
   operation, or all operations run and the commit-time kill decides *)
Lemma run_tx_cases fault linger crash p st :
  (exists t, frame (snd st) t /\
             run_tx fault linger crash p st = Aborted (fst st) (scrap (t_wr t) (t_cs t))) \/
  (exists k, crash = Some (AtOp k) /\ run_tx fault linger crash p st = Crashed (fst st)) \/
  run_ops (fst st) fault (crash_at crash) p (tx0 (snd st)) = RDone (tx_final p st).
Proof.
  unfold run_tx.
  assert (K : crash_at crash <> None -> exists k, crash = Some (AtOp k))
    by (destruct crash as [[k| |]|]; cbn; [eauto|congruence..]).
  pose proof (run_ops_spec (fst st) (snd st) p fault (crash_at crash) _ (frame_tx0 _)) as H1.
  destruct (run_ops (fst st) fault (crash_at crash) p (tx0 (snd st))) as [t|t r c'|].
  - right. right. now rewrite H1.
  - destruct H1 as [F Hc]. pose proof (run_ops_spec (fst st) (snd st) (firstn linger r) None c' t F) as H2.
    destruct (run_ops (fst st) None c' (firstn linger r) t) as [t'|t' r' c2|].
    + left. exists t'. split; [rewrite H2; now apply frame_exec_all|reflexivity].
    + left. exists t'. split; [apply H2|reflexivity].
    + right. left. destruct K as [k ->]; [intros E; now apply H2, Hc|]. now exists k.
  - right. left. destruct (K H1) as [k ->]. now exists k.
Qed.

Lemma run_tx_done fault linger crash p st :
  run_ops (fst st) fault (crash_at crash) p (tx0 (snd st)) = RDone (tx_final p st) ->
  run_tx fault linger crash p st =
  match crash with
  | Some BeforeCommit => Crashed (fst st)
  | Some AfterCommit => Crashed (materialize (fst st) (tx_writes p st))
  | _ => Committed (materialize (fst st) (tx_writes p st)) (t_cs (tx_final p st))
  end.
Proof. unfold run_tx. now intros ->. Qed.

Lemma aborted_unchanged st p fault linger crash d' cs' : coh st ->
  run_tx fault linger crash p st = Aborted d' cs' -> unchanged st d' cs'.
Proof.
  intros Hc H. destruct (run_tx_cases fault linger crash p st) as [(t & F & E)|[(k & _ & E)|R]].
  - rewrite E in H. injection H as <- <-. now apply abort_unchanged.
  - congruence.
  - rewrite (run_tx_done _ _ _ _ _ R) in H. destruct crash as [[| |]|]; discriminate.
Qed.

Lemma fault_fires d p : forall k t, k < count_failable d p t ->
  exists t' r c', run_ops d (Some k) None p t = RFault t' r c'.
Proof.
  induction p as [|f p IH]; intros k t Hk; cbn [count_failable] in Hk; [lia|].
  cbn [run_ops dec]. destruct (failable (f (t_view t))); [|apply IH; lia].
  destruct k as [|k]; [now eexists _, _, _|]. apply IH. lia.
Qed.

Lemma crash_file st p fault linger cp file : run_tx fault linger (Some cp) p st = Crashed file ->
  match cp with
  | AfterCommit => run_tx fault linger None p st = Committed file (t_cs (tx_final p st))
  | _ => file = fst st
  end.
Proof.
  intros H. destruct (run_tx_cases fault linger (Some cp) p st) as [(t & _ & E)|[(k & [= ->] & E)|R]]; [congruence..|].
  rewrite (run_tx_done _ _ _ _ _ R) in H. destruct cp; [discriminate|congruence|].
  injection H as <-. apply (run_tx_done fault linger None _ _ R).
Qed.

Lemma committed_is_final st p fault linger crash d' cs' :
  run_tx fault linger crash p st = Committed d' cs' ->
  d' = materialize (fst st) (tx_writes p st) /\ cs' = t_cs (tx_final p st).
Proof.
  intros H. destruct (run_tx_cases fault linger crash p st) as [(t & _ & E)|[(k & _ & E)|R]]; [congruence..|].
  rewrite (run_tx_done _ _ _ _ _ R) in H. destruct crash as [[| |]|]; try discriminate; now injection H as <- <-.
Qed.

(* a transaction whose written caches agree with its view, and which writes no cached bucket behind the
   cache's back, would commit to a coherent state *)
Lemma sync cs0 d t : coh (d, cs0) -> mirrors_final cs0 d t -> frame cs0 t ->
  coh (materialize d (t_ov t), t_cs t).
Proof.
  intros Hc [G S] F c x U k o L. cbn [fst snd] in *.
  destruct (mem c (t_wr t)) eqn:M; [apply existsb_bytes_In in M; exact (S c x M U k o L)|].
  apply existsb_bytes_notIn in M.
  assert (U0 : usable cs0 c = Some x) by (unfold usable in *; now rewrite <- (F c M)).
  rewrite materialize_get, ov_find_none; [exact (Hc c x U0 k o L)|].
  intros k' o' Hin. destruct (G c k' o' Hin) as [Hw|Hu]; [now apply M|congruence].
Qed.

Lemma coh_commit st p : coh st -> mirrors p st ->
  coh (materialize (fst st) (tx_writes p st), t_cs (tx_final p st)).
Proof. intros Hc M. destruct st as [d cs0]. apply (sync cs0 d _ Hc M), frame_exec_all, frame_tx0. Qed.

Lemma rejections sc maxsize b s es compile k st : coh st ->
  snd (apply_spec sc maxsize b s) = SErr es ->
  es <> [] /\ (forall e, In e es -> In e [ERR_DUP; ERR_EXISTS; ERR_SIZE; ERR_TYPE]) /\
  fst (apply_spec sc maxsize b s) = s /\
  exists cs', run_batch sc maxsize b s compile k st = Aborted (fst st) cs' /\ unchanged st (fst st) cs'.
Proof.
  intros Hc H. destruct (spec_rejected _ _ _ _ _ H) as (U & N & K).
  split; [exact N|]. split; [exact K|]. split; [exact U|].
  unfold run_batch, run_reject, abort. rewrite H. eexists. split; [reflexivity|].
  apply abort_unchanged; [exact Hc|apply frame_exec_all, frame_tx0].
Qed.

Lemma straggle_fixed s ops : y_done s = true -> straggle true s ops = s.
Proof.
  intros H. unfold straggle. induction ops as [|o ops IH]; cbn [fold_left]; [reflexivity|].
  replace (straggle1 true s o) with s; [exact IH|]. unfold straggle1. now rewrite H.
Qed.

Lemma usable_aset cs c x c' :
  usable (aset c (x, false) cs) c' = if bytes_eqb c' c then Some x else usable cs c'.
Proof. unfold usable. rewrite alookup_aset. now destruct (bytes_eqb c' c). Qed.

(* what holds of a disciplined transaction at every step (the view plays no part) *)
Definition tinv (cs0 : caches) (d : disk) (t : txs) : Prop :=
  mirrors_final cs0 d t /\ frame cs0 t.

(* whatever the transaction finds in cache c -- its own, a shared one, a fresh one -- agrees with its view *)
Lemma entries_sync cs0 d t c : coh (d, cs0) -> tinv cs0 d t ->
  forall k o, alookup k (cache_entries (t_cs t) c) = Some o -> d_get (materialize d (t_ov t)) c k = o.
Proof.
  intros Hc [M F] k o L. unfold cache_entries in L. destruct (usable (t_cs t) c) as [x|] eqn:U; [|discriminate].
  exact (sync cs0 d t Hc M F c x U k o L).
Qed.

(* write access to cache c, possibly together with writes to bucket c (ov' extends the overlay by such
   writes only), when the registered entries x agree with the new view *)
Lemma tinv_touch cs0 d t c x ov' v : tinv cs0 d t ->
  (forall b k o, In (b, k, o) ov' -> In (b, k, o) (t_ov t) \/ b = c) ->
  (forall c' k, c' <> c -> d_get (materialize d ov') c' k = d_get (materialize d (t_ov t)) c' k) ->
  (forall k o, alookup k x = Some o -> d_get (materialize d ov') c k = o) ->
  tinv cs0 d (mkT ov' (aset c (x, false) (t_cs t)) (c :: t_wr t) v).
Proof.
  intros [[G S] F] Hov Hfr Hx. split; [split|exact (frame_touch cs0 t c x RUnit F)]; cbn [t_ov t_cs t_wr].
  - intros b k o Hin. destruct (Hov b k o Hin) as [H| ->]; [|left; now left].
    destruct (G b k o H); [left; now right|now right].
  - intros c' x' Hw U k o L. rewrite usable_aset in U. destruct (bytes_eqb_spec c' c) as [->|Hne].
    + injection U as <-. now apply Hx.
    + rewrite Hfr by exact Hne. destruct Hw as [->|Hw]; [contradiction|]. exact (S c' x' Hw U k o L).
Qed.

Lemma tinv_cget cs0 d t c k : coh (d, cs0) -> tinv cs0 d t -> tinv cs0 d (exec_op d t (CGet c k)).
Proof.
  intros Hc I. cbn [exec_op]. pose proof (entries_sync cs0 d t c Hc I) as ES.
  destruct (alookup k (cache_entries (t_cs t) c)) as [o|] eqn:L; (apply tinv_touch; [exact I|auto..|]); [exact ES|].
  intros k' o'. rewrite alookup_aset. destruct (bytes_eqb_spec k' k) as [->|]; [now intros [= <-]|apply ES].
Qed.

(* CPut c k o immediately followed by the bucket write of the same entry *)
Lemma tinv_wpair cs0 d t c k o v1 v2 : coh (d, cs0) -> tinv cs0 d t ->
  tinv cs0 d (mkT ((c, k, o) :: t_ov t)
                  (aset c (aset k o (cache_entries (t_cs t) c), false) (t_cs t))
                  (c :: t_wr t) (v2 :: v1 :: t_view t)).
Proof.
  intros Hc I. apply tinv_touch; [exact I| | |].
  - intros b k' o' [[= <- <- <-]|H]; [now right|now left].
  - intros c' k' Hne. change (materialize d ((c, k, o) :: t_ov t)) with (apply_wr (c, k, o) (materialize d (t_ov t))).
    now rewrite d_get_apply_wr, (bytes_eqb_neq c' c).
  - intros k' o'. change (materialize d ((c, k, o) :: t_ov t)) with (apply_wr (c, k, o) (materialize d (t_ov t))).
    rewrite d_get_apply_wr, bytes_eqb_refl, alookup_aset.
    destruct (bytes_eqb k' k); [now intros [= <-]|apply (entries_sync cs0 d t c Hc I)].
Qed.

(* a write to a bucket that has no usable shared cache and whose cache the transaction has not opened *)
Lemma tinv_raw cs0 d t b k o v : tinv cs0 d t ->
  negb (mem b (t_wr t)) && match usable cs0 b with None => true | Some _ => false end = true ->
  tinv cs0 d (mkT ((b, k, o) :: t_ov t) (t_cs t) (t_wr t) v).
Proof.
  intros [[G S] F] H. apply andb_true_iff in H as [Hn Hu]. apply negb_true_iff, existsb_bytes_notIn in Hn.
  split; [split|exact F]; cbn [t_ov t_cs t_wr].
  - intros b' k' o' [[= <- <- <-]|Hin]; [right; now destruct (usable cs0 b)|now apply (G b' k' o')].
  - intros c x Hw U k' o' L.
    change (materialize d ((b, k, o) :: t_ov t)) with (apply_wr (b, k, o) (materialize d (t_ov t))).
    rewrite d_get_apply_wr. destruct (bytes_eqb_spec c b) as [->|]; [contradiction|exact (S c x Hw U k' o' L)].
Qed.

(* induction on a bound of the length: a CPut is consumed together with the operation after it *)
Lemma write_through_inv cs0 d : coh (d, cs0) -> forall n p, length p <= n -> forall t,
  tinv cs0 d t -> write_through cs0 d p t = true -> tinv cs0 d (exec_all d p t).
Proof.
  intros Hc. induction n as [|n IH]; intros [|f r] Hn t I W; try exact I; [cbn in Hn; lia|].
  cbn [length] in Hn. cbn [write_through exec_all] in *.
  destruct (f (t_view t)) as [b k|b k v|b k|b|c k|c k o].
  1, 4: apply IH; [lia|exact I|exact W].
  1, 2: apply andb_true_iff in W as [W W2]; apply IH; [lia|now apply tinv_raw|exact W2].
  - apply IH; [lia|now apply tinv_cget|exact W].
  - destruct r as [|g r']; [discriminate|]. cbn [length exec_all] in *. apply andb_true_iff in W as [W1 W2].
    apply IH; [lia| |exact W2].
    destruct (g _) as [| b2 k2 v2 | b2 k2 | | |]; try discriminate; destruct o as [v'|]; try discriminate;
      rewrite !andb_true_iff, !bytes_eqb_eq in W1; cbn [exec_op touch t_ov t_cs t_wr t_view].
    + destruct W1 as [[-> ->] ->]. now apply tinv_wpair.
    + destruct W1 as [-> ->]. now apply tinv_wpair.
Qed.

Lemma write_through_mirrors st p : coh st ->
  write_through (snd st) (fst st) p (tx0 (snd st)) = true -> mirrors p st.
Proof.
  intros Hc W. destruct st as [d cs0]. cbn [fst snd] in *.
  apply (write_through_inv cs0 d Hc (length p) p (le_n _) (tx0 cs0)); [|exact W].
  split; [split|apply frame_tx0]; cbn [tx0 t_ov t_wr]; [intros ? ? ? []|intros ? ? []].
Qed.
