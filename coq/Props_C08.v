(* Props_C08.v -- property C08: committed data is durable and answers do not
   depend on cache state or backend.  Only statements; each is a few lines
   away from a lemma of Proofs_C08.v.

   M = Model_ItemCache.v: the write-back ItemCache of shard/cache/itemcache.go,
       generic in the Storable instance (plain vector, binary / product quantised
       point, graph node, text posting set, text document record) and in the
       bucket implementation; transactions on a shared cache as cache/manager.go
       hands them out (t_drop = fresh cache: limit 0, eviction, Release, restart;
       TFail = bbolt rollback + scrapped cache).
   S = a plain finite map  id -> option item:  absmap (exact) and
       nabs = absmap up to sp_norm, i.e. up to what a cold ReadFrom gives back
       (own dirty flag cleared; a quantised point loses its full vector once it
       has a code -- distances use the code only from then on).

   Hypotheses that are stated, not proved:
   - BucketLaws: bbolt and the in-memory store satisfy the get/put/delete/keys
     laws (trusted base; proved here for two list implementations);
   - the roaring and msgpack codecs round-trip (the two text instances are
     generic in the codec);
   - wf_run / wf_txs: the operations are legal where they run (vector words are
     float32, edges uint64, documents non-empty, in-place mutations set the
     item's own flag, Delete is not used on posting sets, ForEach / Count only on
     Enumerable instances);
   - SERIALITY: run_txs executes transactions one after the other on the cache.
     Without it coherence fails: c08_stale_refuted (finding F6, handled under
     C11 / C09). *)
From Coq Require Import List NArith Bool Permutation.
From Semadb Require Import Bytes U64 KeyLayout Model_C19 Model_ItemCache Proofs_C08.
Import ListNotations.
Open Scope N_scope.

(* The trusted interface is inhabited: two list backends with different
   ForEach orders satisfy the bucket laws. *)
Theorem c08_list_backends_lawful : BucketLaws AL /\ BucketLaws AL2.
Proof. exact (conj AL_laws AL2_laws). Qed.
Print Assumptions c08_list_backends_lawful.

(* Every instance satisfies the laws the generic theorems need: WriteTo then
   ReadFrom gives the item back (up to sp_norm), DeleteFrom then ReadFrom gives
   ErrNotFound, ReadFrom looks only at the keys of its id, ids own disjoint keys,
   IdFromKey only accepts keys of the id it returns, and the item's own dirty
   flag behaves (CheckAndClearDirty clears it and changes nothing else). *)
Theorem c08_instances_lawful :
  StorableLaws plain_inst plain_spec /\
  StorableLaws binary_inst binary_spec /\
  StorableLaws product_inst product_spec /\
  StorableLaws node_inst node_spec /\
  (forall (enc : list N -> bytes) (dec : bytes -> list N), (forall s, dec (enc s) = s) ->
     StorableLaws (textset_inst enc dec) (textset_spec enc dec)) /\
  (forall (T : Type) (enc : T * N -> bytes) (dec : bytes -> T * N), (forall v, dec (enc v) = v) ->
     StorableLaws (textdoc_inst T enc dec) (textdoc_spec T enc dec)).
Proof.
  exact (conj plain_laws (conj binary_inst_laws (conj product_laws (conj node_laws
          (conj textset_laws textdoc_laws))))).
Qed.
Print Assumptions c08_instances_lawful.

(* The well-formedness predicate ForEach / Count rely on ("every stored item has
   a key from which IdFromKey recovers its id, and every accepted key belongs to
   a readable item") holds for the plain, binary, graph-node and document
   instances; plain, node and document have one enumerating key per id in every
   bucket.
   NOT covered: the product-quantised instance.  Its IdFromKey accepts only 'v'
   while ReadFrom prefers 'q', so
     Enumerable product_inst
   fails on a bucket that holds n<id>q without n<id>v.  semadb never produces such
   a bucket (Set always carries the full vector and WriteTo writes 'v' whenever
   it is present), but that is an invariant of the bucket, outside the per-instance
   laws used here; the flush / warm = cold / backend theorems do cover the product
   instance (c08_instances_lawful), the ForEach / Count statements do not. *)
Theorem c08_instances_enumerable :
  Enumerable plain_inst /\ Enumerable binary_inst /\ Enumerable node_inst /\
  (forall T enc dec, Enumerable (textdoc_inst T enc dec)) /\
  (forall g, enum_unique plain_inst g) /\ (forall g, enum_unique node_inst g) /\
  (forall T enc dec g, enum_unique (textdoc_inst T enc dec) g).
Proof.
  exact (conj (proj1 plain_enum) (conj binary_enumerable (conj (proj1 node_enum)
          (conj (fun T enc dec => proj1 (textdoc_enum T enc dec))
          (conj (proj2 plain_enum) (conj (proj2 node_enum) (fun T enc dec => proj2 (textdoc_enum T enc dec)))))))).
Qed.
Print Assumptions c08_instances_enumerable.

(* ... and for the binary instance it holds ONLY because 'q' is accepted: with
   accepted = ['v'] (the pinned tree before repair F3) a quantised point stored
   under n<id>q is readable but has no enumerating key; a cold ForEach / Count
   misses it, the repaired instance finds it. *)
Theorem c08_binary_idfromkey_refuted :
  ~ Enumerable binary_inst_v0 /\
  exists (b : alist) (i : u64id) (v : bq_item),
    absmap binary_inst_v0 c_empty (al_get b) i = Some v /\
    fst (c_foreach binary_inst_v0 AL c_empty b) = (true, []) /\
    c_count binary_inst_v0 AL c_empty b = 0%nat /\
    fst (c_foreach binary_inst AL c_empty b) = (true, [(i, v)]) /\
    c_count binary_inst AL c_empty b = 1%nat.
Proof.
  split; [apply binary_needs_q; intros [E|[]]; discriminate|].
  exists bq_cold_bucket, id1, bq_cold_item. csplit; reflexivity.
Qed.
Print Assumptions c08_binary_idfromkey_refuted.

(* EVERY operation sequence (Get, GetMany, Put, Delete,
   in-place mutation, ForEach, Count, Flush in any order) started in a state
   satisfying the representation invariant behaves like the plain map
   nabs c b: every observation is the one the map determines (trace_ok: Get
   returns the entry, GetMany the found entries in order, ForEach lists exactly
   the ids with an entry, each once, Count is the number of such ids), the map
   changes only by Put / Delete / mutation, pointwise (spec_run), and the
   invariant is kept. *)
Theorem c08_cache_refines_map :
  forall (S : Storable) (P : StorableSpec S) (B : BucketImpl),
  StorableLaws S P -> BucketLaws B ->
  forall (ops : list (op S)) (c : cache S) (b : bk B) (c' : cache S) (b' : bk B) (xs : list (obs S)),
  inv S P c (bk_get B b) -> wf_run S B P ops c b -> run S B ops c b = (c', b', xs) ->
  inv S P c' (bk_get B b') /\
  trace_ok S P (nabs S P c (bk_get B b)) ops xs /\
  amap_eq S (nabs S P c' (bk_get B b')) (spec_run S P ops (nabs S P c (bk_get B b))).
Proof.
  intros S P B LS LB ops c b c' b' xs I W R.
  destruct (run_spec S B P LB LS ops c b c' b' xs I W R) as (H1 & H2 & H3 & _). auto.
Qed.
Print Assumptions c08_cache_refines_map.

(* The same, operation by operation and EXACT (no normalisation): Get returns
   absmap; Put / Delete update absmap at that id only; Get, GetMany, ForEach
   leave absmap unchanged; ForEach enumerates exactly the ids with absmap = Some,
   each once, and does not fail; Count is the number of those ids. *)
Theorem c08_cache_ops_exact :
  forall (S : Storable) (P : StorableSpec S) (B : BucketImpl),
  StorableLaws S P -> BucketLaws B ->
  forall (c : cache S) (b : bk B),
  let g := bk_get B b in
  inv S P c g ->
  (forall i r c', c_get S B i c b = (r, c') ->
     r = absmap S c g i /\ inv S P c' g /\ forall j, absmap S c' g j = absmap S c g j) /\
  (forall ids l c', c_get_many S B ids c b = (l, c') ->
     l = found S (absmap S c g) ids /\ inv S P c' g /\ forall j, absmap S c' g j = absmap S c g j) /\
  (forall i v, sp_valid P i v g ->
     inv S P (c_put S i v c) g /\
     forall j, absmap S (c_put S i v c) g j = if st_eqb S i j then Some v else absmap S c g j) /\
  (forall i, sp_deletable P = true ->
     inv S P (c_delete S B i c b) g /\
     forall j, absmap S (c_delete S B i c b) g j = if st_eqb S i j then None else absmap S c g j) /\
  (forall ok l c', c_foreach S B c b = (ok, l, c') ->
     inv S P c' g /\ (forall j, absmap S c' g j = absmap S c g j) /\
     (Enumerable S -> ok = true /\ NoDup (map fst l) /\ forall i v, In (i, v) l <-> absmap S c g i = Some v)) /\
  (Enumerable S -> enum_unique S g -> forall l, NoDup (map fst l) ->
     (forall i v, In (i, v) l <-> absmap S c g i = Some v) -> c_count S B c b = length l).
Proof.
  intros S P B LS LB c b g I. csplit.
  - intros i r c' G. destruct (get_spec S B P LS c b i r c' I G) as (H1 & H2 & H3 & _). auto.
  - intros ids l c' G. destruct (get_many_spec S B P LS ids c b l c' I G) as (H1 & H2 & H3 & _). auto.
  - intros i v Hv. exact (put_spec S P LS c g i v I Hv).
  - intros i Hd. exact (delete_spec S B P LS c b i I Hd).
  - intros ok l c' G. destruct (foreach_spec S B P LB LS c b ok l c' I G) as ((I1 & A1 & _) & L1).
    split; [exact I1|split; [exact A1|exact L1]].
  - intros En Hu l Hnd Hin. destruct (count_spec S B P LB LS c b I En Hu) as (l0 & L0 & ->).
    now destruct (listing_perm S _ l0 l L0 (conj Hnd Hin)).
Qed.
Print Assumptions c08_cache_ops_exact.

(* Count counts KEYS.  In the repaired binary instance a point that was stored
   before the quantiser was fitted and re-encoded by Fit afterwards owns both
   n<id>v and n<id>q: a cold Count reports 2 for one point (a warm one 1).  The
   history below is legal (wf_txs); semadb does not reach the wrong count because
   Fit short-circuits on `threshold != nil` before calling Count. *)
Theorem c08_binary_count_refuted :
  exists ts : list (txn binary_inst),
    wf_txs binary_inst AL binary_spec ts c_empty [] /\
    let '(c, b, _) := run_txs binary_inst AL ts c_empty [] in
    c_count binary_inst AL c_empty b = 2%nat /\
    length (snd (fst (c_foreach binary_inst AL c_empty b))) = 1%nat /\
    c_count binary_inst AL c b = 1%nat /\
    ~ enum_unique binary_inst (al_get b).
Proof.
  exists bq_fit_history. split; [exact bq_fit_history_wf|]. rewrite bq_fit_history_run.
  csplit; try reflexivity. apply (binary_two_keys_not_unique _ id1); discriminate.
Qed.
Print Assumptions c08_binary_count_refuted.

(* Posting sets cannot be enumerated (ReadFrom never reports ErrNotFound: an
   absent term is the empty set); text.go never calls ForEach / Count on them. *)
Theorem c08_textset_enum_refuted : forall enc dec, ~ Enumerable (textset_inst enc dec).
Proof. exact textset_not_enumerable. Qed.
Print Assumptions c08_textset_enum_refuted.

(* After Flush the bucket ALONE represents the map: for every
   id ReadFrom on the new bucket returns the entry of the map before the flush
   (up to sp_norm), so a fresh (cold) cache over the new bucket has the same
   view as the warm one; no IsDirty / IsDeleted entry is left and every cached
   value is what the bucket decodes to (settled).  Generic in the instance: with
   c08_instances_lawful it holds for plain, binary, product, node, posting set
   and document items, own dirty flags (Fit, ClearNeighbours / AddNeighbour,
   CheckedAdd / CheckedRemove) and delete-on-empty included. *)
Theorem c08_flush_persists :
  forall (S : Storable) (P : StorableSpec S) (B : BucketImpl),
  StorableLaws S P -> BucketLaws B ->
  forall (c : cache S) (b : bk B) (c' : cache S) (b' : bk B),
  inv S P c (bk_get B b) -> c_flush S B c b = (c', b') ->
  (forall i, st_read S i (bk_get B b') = nabs S P c (bk_get B b) i) /\
  amap_eq S (nabs S P c_empty (bk_get B b')) (nabs S P c (bk_get B b)) /\
  amap_eq S (nabs S P c' (bk_get B b')) (nabs S P c (bk_get B b)) /\
  settled S P c' (bk_get B b') /\ inv S P c' (bk_get B b') /\ c_all c' = c_all c.
Proof.
  intros S P B LS LB c b c' b' I F.
  destruct (flush_spec S B P LB LS c b c' b' I F) as (H1 & H2 & H3 & H4 & H5).
  csplit; auto. intros i. rewrite (cold_nabs S P LS). apply H1.
Qed.
Print Assumptions c08_flush_persists.

(* `item.IsDirty || item.value.CheckAndClearDirty()` short-circuits: an item that
   was Put and re-encoded in the same transaction keeps its own flag after Flush.
   It has been written (settled), so the only effect is a redundant rewrite by the
   next Flush of the warm cache. *)
Theorem c08_flush_selfdirty_leftover :
  exists (c : cache binary_inst) (b : alist),
    inv binary_inst binary_spec c (al_get b) /\
    let '(c', b') := c_flush binary_inst AL c b in
    exists i v, c_items c' = [(i, (v, false, false))] /\ st_self_dirty binary_inst v = true /\
                st_read binary_inst i (al_get b') = Some (sp_norm binary_spec v).
Proof.
  exists bq_refit, []. split; [exact bq_refit_inv|]. rewrite bq_refit_flush.
  exists id1, (bq_fit bq_unfitted). csplit; reflexivity.
Qed.
Print Assumptions c08_flush_selfdirty_leftover.

(* Two executions of the SAME history of transactions
   (searches, committed write batches, failed batches) from the same bucket
   that differ only in when the manager hands out a fresh cache (never = warm
   unlimited cache; always = cache disabled / restart after every batch; any
   other pattern = eviction) make the same observations (up to sp_norm and the
   order in which ForEach visits), end with the same view, the warm view is the
   cold view of its own bucket, and a restart reads the same from either bucket.
   Stated for arbitrary lists, so it holds at every transaction boundary. *)
Theorem c08_warm_equals_cold :
  forall (S : Storable) (P : StorableSpec S) (B : BucketImpl),
  StorableLaws S P -> BucketLaws B ->
  forall (ts1 ts2 : list (txn S)) (b0 : bk B) c1 b1 xs1 c2 b2 xs2,
  Forall2 (same_history S) ts1 ts2 ->
  wf_txs S B P ts1 c_empty b0 -> wf_txs S B P ts2 c_empty b0 ->
  run_txs S B ts1 c_empty b0 = (c1, b1, xs1) -> run_txs S B ts2 c_empty b0 = (c2, b2, xs2) ->
  Forall2 (Forall2 (obs_equiv P)) xs1 xs2 /\
  amap_eq S (nabs S P c1 (bk_get B b1)) (nabs S P c2 (bk_get B b2)) /\
  amap_eq S (nabs S P c1 (bk_get B b1)) (nabs S P c_empty (bk_get B b1)) /\
  (forall i, st_read S i (bk_get B b1) = st_read S i (bk_get B b2)).
Proof.
  intros S P B LS LB ts1 ts2 b0 c1 b1 xs1 c2 b2 xs2 HF W1 W2 R1 R2.
  destruct (sim_cold S P B B LB LB LS ts1 ts2 b0 b0 c1 b1 xs1 c2 b2 xs2 (fun i => eq_refl) HF W1 W2 R1 R2)
    as (F & A & R & C). auto.
Qed.
Print Assumptions c08_warm_equals_cold.

(* The same history on ANY two bucket implementations
   satisfying the laws, started from buckets that read the same, makes the same
   observations and ends with the same view; a restart reads the same from both.
   (Cache schedules may differ as well.) *)
Theorem c08_backend_independent :
  forall (S : Storable) (P : StorableSpec S), StorableLaws S P ->
  forall (B1 B2 : BucketImpl), BucketLaws B1 -> BucketLaws B2 ->
  forall (ts1 ts2 : list (txn S)) (b01 : bk B1) (b02 : bk B2) c1 b1 xs1 c2 b2 xs2,
  (forall i, st_read S i (bk_get B1 b01) = st_read S i (bk_get B2 b02)) ->
  Forall2 (same_history S) ts1 ts2 ->
  wf_txs S B1 P ts1 c_empty b01 -> wf_txs S B2 P ts2 c_empty b02 ->
  run_txs S B1 ts1 c_empty b01 = (c1, b1, xs1) -> run_txs S B2 ts2 c_empty b02 = (c2, b2, xs2) ->
  Forall2 (Forall2 (obs_equiv P)) xs1 xs2 /\
  amap_eq S (nabs S P c1 (bk_get B1 b1)) (nabs S P c2 (bk_get B2 b2)) /\
  (forall i, st_read S i (bk_get B1 b1) = st_read S i (bk_get B2 b2)).
Proof.
  intros S P LS B1 B2 L1 L2 ts1 ts2 b01 b02 c1 b1 xs1 c2 b2 xs2 H0 HF W1 W2 R1 R2.
  destruct (sim_cold S P B1 B2 L1 L2 LS ts1 ts2 b01 b02 c1 b1 xs1 c2 b2 xs2 H0 HF W1 W2 R1 R2)
    as (F & A & R & _). auto.
Qed.
Print Assumptions c08_backend_independent.

(* buckets with the same contents read the same *)
Theorem c08_same_contents_read_same :
  forall (S : Storable) (P : StorableSpec S), StorableLaws S P ->
  forall g g', kv_eq g g' -> forall i, st_read S i g = st_read S i g'.
Proof. intros S P LS g g' H i. apply (sl_read_ext S P LS). intros k _. apply H. Qed.
Print Assumptions c08_same_contents_read_same.

(* Finding F6: without seriality coherence fails.  A reader
   registers a fresh cache whose bucket handle is a snapshot b0 taken before a
   concurrent writer commits, populates it, the writer commits b1, and the
   reader's cache stays in the manager: it satisfies the invariant for b0, not
   for b1, and Get on it differs from Get on a cold cache over b1. *)
Theorem c08_stale_refuted :
  exists (b0 : alist) (reader_ops writer_ops : list (op plain_inst)) (i : u64id),
    let '(cr, b1) := stale_state plain_inst AL reader_ops writer_ops b0 in
    inv plain_inst plain_spec cr (al_get b0) /\
    settled plain_inst plain_spec cr (al_get b0) /\
    fst (c_get plain_inst AL i cr b1) <> fst (c_get plain_inst AL i c_empty b1) /\
    nabs plain_inst plain_spec cr (al_get b1) i <> nabs plain_inst plain_spec c_empty (al_get b1) i /\
    ~ inv plain_inst plain_spec cr (al_get b1).
Proof.
  exists stale_b0, stale_reader, stale_writer, id1. rewrite stale_state_eq.
  destruct stale_witness as (I0 & S0 & G1 & G2 & N1).
  split; [exact I0|]. split; [exact S0|]. split; [rewrite G1, G2; discriminate|]. split; [discriminate|exact N1].
Qed.
Print Assumptions c08_stale_refuted.

(* The hypotheses are satisfiable by non-trivial data. *)

Ltac plain_ok := repeat constructor; try (intros; first [discriminate|reflexivity]).

Notation OPut' := (@OPut plain_inst).
Notation OGet' := (@OGet plain_inst).
Notation OGetMany' := (@OGetMany plain_inst).
Notation ODelete' := (@ODelete plain_inst).
Notation OForEach' := (@OForEach plain_inst).
Notation OCount' := (@OCount plain_inst).
Notation OFlush' := (@OFlush plain_inst).
Notation ObsUnit' := (@ObsUnit plain_inst).
Notation ObsGet' := (@ObsGet plain_inst).
Notation ObsMany' := (@ObsMany plain_inst).
Notation ObsEach' := (@ObsEach plain_inst).
Notation ObsCount' := (@ObsCount plain_inst).
Notation mkTxn' := (@mkTxn plain_inst).

Definition ex_ops : list (op plain_inst) :=
  [ OPut' id1 vecA; OGet' id1; OPut' id2 vecB; OForEach'; OCount'; OFlush';
    ODelete' id1; OGet' id1; OGetMany' [id1; id2]; OCount'; OFlush'; OForEach' ].

(* an operation sequence that is legal from the empty cache over the empty bucket,
   with what it observes *)
Example ex_refines_hyps :
  inv plain_inst plain_spec c_empty (bk_get AL []) /\
  wf_run plain_inst AL plain_spec ex_ops c_empty [] /\
  map view (snd (run plain_inst AL ex_ops c_empty [])) =
    [ VUnit; VGet (Some vecA); VUnit; VEach true [(1, vecA); (2, vecB)]; VCount 2; VUnit;
      VUnit; VGet None; VMany [vecB]; VCount 1; VUnit; VEach true [(2, vecB)] ].
Proof.
  split; [apply inv_empty|]. split; [apply plain_wf_run; plain_ok|reflexivity].
Qed.

(* the same history with a warm cache, and with a fresh cache for every transaction *)
Definition ex_history (drop : bool) : list (txn plain_inst) :=
  [ mkTxn' drop [OPut' id1 vecA; OPut' id2 vecA] TWrite;
    mkTxn' drop [OForEach'] TRead;
    mkTxn' drop [OGet' id1; OForEach'] TRead;
    mkTxn' drop [OPut' id2 vecB; ODelete' id1] TWrite;
    mkTxn' drop [OPut' id1 vecB] TFail;
    mkTxn' drop [OGet' id1; OGet' id2; OCount'; OForEach'] TRead ].

Example ex_warm_cold_hyps :
  Forall2 (same_history plain_inst) (ex_history false) (ex_history true) /\
  wf_txs plain_inst AL plain_spec (ex_history false) c_empty [] /\
  wf_txs plain_inst AL plain_spec (ex_history true) c_empty [] /\
  wf_txs plain_inst AL2 plain_spec (ex_history false) c_empty [] /\
  map (map view) (snd (run_txs plain_inst AL (ex_history false) c_empty [])) =
    [ [VUnit; VUnit]; [VEach true [(1, vecA); (2, vecA)]]; [VGet (Some vecA); VEach true [(1, vecA); (2, vecA)]];
      [VUnit; VUnit]; [VUnit]; [VGet None; VGet (Some vecB); VCount 1; VEach true [(2, vecB)]] ] /\
  (* a cold ForEach visits in bucket order: equal up to permutation only *)
  map (map view) (snd (run_txs plain_inst AL (ex_history true) c_empty [])) =
    [ [VUnit; VUnit]; [VEach true [(2, vecA); (1, vecA)]]; [VGet (Some vecA); VEach true [(1, vecA); (2, vecA)]];
      [VUnit; VUnit]; [VUnit]; [VGet None; VGet (Some vecB); VCount 1; VEach true [(2, vecB)]] ] /\
  map (map view) (snd (run_txs plain_inst AL2 (ex_history false) c_empty [])) =
    map (map view) (snd (run_txs plain_inst AL (ex_history false) c_empty [])).
Proof.
  split; [repeat constructor|].
  split; [apply plain_wf_txs; plain_ok|].
  split; [apply plain_wf_txs; plain_ok|].
  split; [apply plain_wf_txs; plain_ok|].
  split; [vm_compute; reflexivity|]. split; vm_compute; reflexivity.
Qed.

(* a non-trivial state satisfying the invariant, for c08_flush_persists: a dirty
   entry, a deleted entry and a clean entry over a non-empty bucket *)
Example ex_flush_hyps :
  let '(c, b, _) := run plain_inst AL [OPut' id1 vecA; OPut' id2 vecA; OFlush'; OPut' id1 vecB; ODelete' id2] c_empty [] in
  inv plain_inst plain_spec c (bk_get AL b) /\ c_items c <> [] /\ b <> [] /\
  ~ settled plain_inst plain_spec c (bk_get AL b).
Proof.
  match goal with |- context [run _ _ ?l _ _] => set (ops := l) end.
  assert (R : run plain_inst AL ops c_empty [] =
              (@mkCache plain_inst [(id1, (vecB, true, false)); (id2, (vecA, false, true))] false,
               [(nkey id2 sfx_v, f32s_le vecA); (nkey id1 sfx_v, f32s_le vecA)],
               [ObsUnit'; ObsUnit'; ObsUnit'; ObsUnit'; ObsUnit'])) by reflexivity.
  rewrite R. split; [|split; [discriminate|split; [discriminate|]]].
  - refine (proj1 (c08_cache_refines_map _ _ AL plain_laws AL_laws _ _ _ _ _ _ (inv_empty _ _ _) _ R)).
    apply plain_wf_run. plain_ok.
  - intros Hs. destruct (Hs id1 vecB true false eq_refl) as [Hd _]. discriminate.
Qed.

(* the codec hypotheses of the two text instances are satisfiable *)
Example ex_text_codecs :
  StorableLaws (textset_inst (fun s => s) (fun b => b)) (textset_spec (fun s => s) (fun b => b)) /\
  StorableLaws (textdoc_inst N (fun v => [fst v; snd v]) (fun b => (nth 0 b 0, nth 1 b 0)))
               (textdoc_spec N (fun v => [fst v; snd v]) (fun b => (nth 0 b 0, nth 1 b 0))).
Proof.
  split; [apply textset_laws; reflexivity|apply textdoc_laws; intros [a b]; reflexivity].
Qed.

(* the flush theorem on the text items: an emptied posting set and a deleted
   document disappear from the bucket, and the cold view equals the warm one *)
Example ex_text_flush :
  let S := textset_inst (fun s => s) (fun b => b) in
  let '(c, b, _) := run S AL [@OModify S [104; 105] (fun _ => ([7], true)); @OFlush S;
                              @OModify S [104; 105] (fun _ => ([], true)); @OFlush S] c_empty [] in
  b = [] /\ absmap S c (al_get b) [104; 105] = Some ([], false).
Proof. vm_compute. split; reflexivity. Qed.
