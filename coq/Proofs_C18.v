(* Proofs_C18.v -- lemmas for property C18: a request the handlers pass on has the dimension of the
   index it reaches and lies within the documented limits; one they refuse makes no cluster call; the
   v1 handlers do not panic.
   Side conditions on the generated constants (a structural flag is set, an enforced limit lies
   within the documented one) are checked by computation at the step that needs them: the
   [eq_refl] arguments and [reflexivity] steps below.  If an edit of the Go sources drops a check
   or loosens an enforced limit beyond the documented one, that step no longer type-checks and
   the check reports a broken proof obligation. *)
From Coq Require Import List ZArith NArith Bool String QArith Lia.
From Semadb Require Import ListFacts DocLimits Dyadic Model_C18.
Import ListNotations.
Open Scope Z_scope.

(* split a conjunction of checks syntactically (apply ... in would unfold in_range) *)
Ltac split_and H :=
  repeat match type of H with
         | (_ && _) = true => let H2 := fresh "C" in apply andb_true_iff in H; destruct H as [H H2]
         end.
Ltac split_goal := repeat match goal with |- (_ && _) = true => apply andb_true_iff; split end.

Lemma gate_true : forall f c, f = true -> gate f c = c.
Proof. intros f c ->. reflexivity. Qed.
Lemma glist_true : forall A f (l : list A), f = true -> glist f l = l.
Proof. intros A f l ->. reflexivity. Qed.
Lemma incl_glist : forall A f (l : list A), incl (glist f l) l.
Proof. intros A [] l; simpl; [apply incl_refl | apply incl_nil_l]. Qed.
Lemma incl_glist2 : forall A fe fv (l1 l2 : list A), fv = true -> incl l1 l2 -> incl (glist fe l1) (glist fv l2).
Proof. intros A fe fv l1 l2 -> H. eapply incl_tran; [apply incl_glist | exact H]. Qed.
Lemma Forall_glist : forall A (P : A -> Prop) f l, Forall P l -> Forall P (glist f l).
Proof. intros A P [] l H; simpl; [exact H | constructor]. Qed.

Lemma in_range_spec : forall lo hi x, in_range lo hi x = true <-> lo <= x <= hi.
Proof. intros. unfold in_range. rewrite andb_true_iff, !Z.leb_le. tauto. Qed.

Lemma sub_range_in : forall elo ehi dlo dhi x,
  sub_range elo ehi dlo dhi = true -> in_range elo ehi x = true -> in_range dlo dhi x = true.
Proof.
  intros elo ehi dlo dhi x Hs Hx. unfold sub_range in Hs. apply andb_true_iff in Hs as [A B].
  apply Z.leb_le in A, B. apply in_range_spec in Hx. apply in_range_spec. lia.
Qed.

Lemma sub_list_mem : forall e d x, sub_list e d = true -> mem x e = true -> mem x d = true.
Proof.
  intros e d x Hs Hx. unfold sub_list in Hs. rewrite forallb_forall in Hs.
  unfold mem in Hx. apply existsb_exists in Hx as [y [Hy E]].
  apply String.eqb_eq in E. subst y. auto.
Qed.

(* from an enforced range or list to the documented one that contains it *)
Ltac use_sub :=
  match goal with
  | B : in_range ?a ?b ?x = true |- in_range ?c ?d ?x = true => exact (sub_range_in a b c d x eq_refl B)
  | B : mem ?x ?e = true |- mem ?x ?d = true => exact (sub_list_mem e d x eq_refl B)
  end.

Lemma seq_eq : forall a b, seq a b = true -> a = b.
Proof. intros a b H. apply String.eqb_eq. exact H. Qed.

Lemma lookup_in : forall A k (l : list (string * A)) v, lookup k l = Some v -> In (k, v) l.
Proof.
  intros A k l v. replace (lookup k l) with (aget String.eqb k l); [apply aget_In, String.eqb_spec|].
  induction l as [|[k' v'] r IH]; cbn; [|rewrite IH]; reflexivity.
Qed.

Lemma incl_flat_map_Forall : forall A B (f g : A -> list B) l,
  Forall (fun a => incl (f a) (g a)) l -> incl (flat_map f l) (flat_map g l).
Proof.
  induction 1 as [|a l Ha Hl IH]; simpl; [apply incl_refl|].
  apply incl_app; [apply incl_appl; exact Ha | apply incl_appr; exact IH].
Qed.

(* induction over query trees (nested through option, ropts and list) *)

Definition fil_all (P : query -> Prop) (o : option (ropts query)) : Prop :=
  match o with
  | Some r => match r_filter r with Some f => P f | None => True end
  | None => True
  end.

Section QueryInd.
  Variable P : query -> Prop.
  Hypothesis step : forall prop qflat qvam qtext qstr qint qflt qsarr qand qor,
    fil_all P qflat -> fil_all P qvam -> fil_all P qtext -> Forall P qand -> Forall P qor ->
    P (Qry prop qflat qvam qtext qstr qint qflt qsarr qand qor).

  Fixpoint query_ind' (q : query) : P q :=
    match q with
    | Qry prop qflat qvam qtext qstr qint qflt qsarr qand qor =>
      let fil (o : option (ropts query)) : fil_all P o :=
        match o return fil_all P o with
        | Some (mkR _ _ _ _ (Some f)) => query_ind' f
        | Some (mkR _ _ _ _ None) => I
        | None => I
        end in
      let fix all (l : list query) : Forall P l :=
        match l with
        | [] => Forall_nil P
        | x :: r => Forall_cons x (query_ind' x) (all r)
        end in
      step prop qflat qvam qtext qstr qint qflt qsarr qand qor (fil qflat) (fil qvam) (fil qtext) (all qand) (all qor)
    end.
End QueryInd.

Lemma forallb_Forall_impl : forall {A} (f : A -> bool) (P : A -> Prop) l,
  Forall (fun q => f q = true -> P q) l -> forallb f l = true -> Forall P l.
Proof.
  induction 1 as [|a l Ha Hl IH]; simpl; intros H; [constructor|].
  apply andb_true_iff in H. destruct H. constructor; auto.
Qed.
Lemma forallb_impl_Forall : forall {A} (f g : A -> bool) l,
  Forall (fun q => f q = true -> g q = true) l -> forallb f l = true -> forallb g l = true.
Proof.
  intros A f g l H V. apply forallb_forall, (Forall_forall (fun q => g q = true)).
  exact (forallb_Forall_impl f _ l H V).
Qed.

(* ValidateSchema compares exactly the pairs of vs_pairs, each against the dimension of an
   index of the schema *)

Definition dim_in (s : ischema) (d : Z) : Prop := exists k iv, In (k, iv) s /\ dim_of iv = Some d.

Lemma vs_sound : forall s q, validate_schema s q = true ->
  Forall (fun p => fst p = snd p /\ dim_in s (fst p)) (vs_pairs s q).
Proof.
  intros s q. induction q as [prop qflat qvam qtext qstr qint qflt qsarr qand qor Hf Hv Ht Ha Ho] using query_ind'.
  cbn [validate_schema vs_pairs]. intros H.
  destruct (seq prop "_and").
  { apply Forall_glist, Forall_flat_map. exact (forallb_Forall_impl _ _ _ Ha H). }
  destruct (seq prop "_or").
  { apply Forall_glist, Forall_flat_map. exact (forallb_Forall_impl _ _ _ Ho H). }
  destruct (seq prop "_id"); [constructor|].
  destruct (lookup prop s) as [iv|] eqn:L; [|constructor]. apply lookup_in in L.
  destruct (seq (iv_type iv) "vectorVamana") eqn:Tv.
  { apply seq_eq in Tv. rewrite Tv in H. cbn in H.
    destruct qvam as [o|]; [|constructor]. destruct (iv_vamana iv) as [p|] eqn:E; [|constructor].
    apply andb_true_iff in H as [H1 H2]. apply Forall_app. split; apply Forall_glist.
    - cbn in Hv. destruct (r_filter o); [auto | constructor].
    - constructor; [|constructor]. split; [symmetry; apply Z.eqb_eq, H1|].
      exists prop, iv. split; [exact L|]. unfold dim_of. rewrite Tv, E. reflexivity. }
  destruct (seq (iv_type iv) "vectorFlat") eqn:Tf.
  { destruct qflat as [o|]; [|constructor]. destruct (iv_flat iv) as [p|] eqn:E; [|constructor].
    apply andb_true_iff in H as [H1 H2]. apply Forall_app. split; apply Forall_glist.
    - cbn in Hf. destruct (r_filter o); [auto | constructor].
    - constructor; [|constructor]. split; [symmetry; apply Z.eqb_eq, H1|].
      exists prop, iv. split; [exact L|]. unfold dim_of. rewrite Tf, E. reflexivity. }
  destruct (seq (iv_type iv) "text"); [|constructor].
  destruct qtext as [o|]; [|constructor]. apply Forall_glist.
  cbn in Ht. destruct (r_filter o); [auto | constructor].
Qed.

(* every position the evaluator reaches is a position ValidateSchema compares *)
Lemma reach_covered : forall s q, incl (eval_reach s q) (vs_pairs s q).
Proof.
  intros s q. induction q as [prop qflat qvam qtext qstr qint qflt qsarr qand qor Hf Hv Ht Ha Ho] using query_ind'.
  cbn [eval_reach vs_pairs].
  destruct (seq prop "_and"); [apply incl_glist2, incl_flat_map_Forall, Ha; reflexivity|].
  destruct (seq prop "_or"); [apply incl_glist2, incl_flat_map_Forall, Ho; reflexivity|].
  destruct (seq prop "_id"); [apply incl_refl|].
  destruct (lookup prop s) as [iv|]; [|apply incl_refl].
  destruct (seq (iv_type iv) "vectorVamana").
  { destruct qvam as [o|]; [|apply incl_refl]. destruct (iv_vamana iv) as [p|]; [|apply incl_refl].
    apply incl_app; [apply incl_appl | apply incl_appr, incl_refl].
    apply incl_glist2; [reflexivity|]. cbn in Hv. destruct (r_filter o); [exact Hv | apply incl_refl]. }
  destruct (seq (iv_type iv) "vectorFlat").
  { destruct qflat as [o|]; [|apply incl_refl]. destruct (iv_flat iv) as [p|]; [|apply incl_refl].
    apply incl_app; [apply incl_appl | apply incl_appr, incl_refl].
    apply incl_glist2; [reflexivity|]. cbn in Hf. destruct (r_filter o); [exact Hf | apply incl_refl]. }
  destruct (seq (iv_type iv) "text"); [|apply incl_refl].
  destruct qtext as [o|]; [|apply incl_refl].
  apply incl_glist2; [reflexivity|]. cbn in Ht. destruct (r_filter o); [exact Ht | apply incl_refl].
Qed.

Lemma ivalue_dim_doc : forall iv d, validate_ivalue iv = true -> dim_of iv = Some d -> doc_dim_ok d = true.
Proof.
  intros iv d H. unfold validate_ivalue in H. apply andb_true_iff in H as [_ H]. revert H.
  unfold dim_of, doc_dim_ok. rewrite orb_true_iff.
  destruct (seq (iv_type iv) "vectorFlat").
  - destruct (iv_flat iv) as [p|]; intros H D; [|discriminate]. injection D as <-.
    rewrite gate_true in H by reflexivity. unfold validate_flat in H. split_and H. right. use_sub.
  - destruct (seq (iv_type iv) "vectorVamana"); [|discriminate].
    destruct (iv_vamana iv) as [p|]; intros H D; [|discriminate]. injection D as <-.
    rewrite gate_true in H by reflexivity. unfold validate_vamana in H. split_and H. left. use_sub.
Qed.

Lemma ischema_dim_doc : forall s k iv d,
  validate_ischema s = true -> In (k, iv) s -> dim_of iv = Some d -> doc_dim_ok d = true.
Proof.
  intros s k iv d H L. unfold validate_ischema in H. rewrite gate_true, forallb_forall in H by reflexivity.
  exact (ivalue_dim_doc iv d (H _ L)).
Qed.

Lemma dimension_guard : forall s r,
  validate_ischema s = true -> validate_search s r = true ->
  Forall (fun p => fst p = snd p /\ doc_dim_ok (snd p) = true) (eval_reach s (sr_query r)).
Proof.
  intros s r W H. unfold validate_search in H. apply andb_true_iff in H as [_ H].
  apply (incl_Forall (reach_covered s (sr_query r))).
  eapply Forall_impl; [|exact (vs_sound _ _ H)]. intros p [E (k & iv & Hin & D)].
  split; [exact E | rewrite <- E; exact (ischema_dim_doc s k iv _ W Hin D)].
Qed.

(* v1 handlers: insert, update and search validate the request, fetch the dimension of the
   "vector" index and compare it with the request *)

Definition v1_guarded (valid : bool) (s : ischema) (fit : Z -> bool) (o : op) : hres :=
  if valid then match v1_dim s with Some d => if fit d then Call o else Reject | None => Reject end
  else Reject.

Lemma handler_insert1_eq : forall s r, handler_insert1 s r =
  v1_guarded (validate_insert1 r) s (fun d => points1_fit d r) (OpInsert (Z.of_nat (List.length (ps1_points r)))).
Proof. intros s r. unfold handler_insert1, v1_guarded. destruct (validate_insert1 r); reflexivity. Qed.
Lemma handler_update1_eq : forall s r, handler_update1 s r =
  v1_guarded (validate_update1 r) s (fun d => points1_fit d r) (OpUpdate (Z.of_nat (List.length (ps1_points r)))).
Proof. intros s r. unfold handler_update1, v1_guarded. destruct (validate_update1 r); reflexivity. Qed.
Lemma handler_search1_eq : forall s r, handler_search1 s r =
  v1_guarded (validate_search1 r) s (fun d => s1_len r =? d) OpSearch.
Proof. intros s r. unfold handler_search1, handler_search1_gen, v1_guarded. destruct (validate_search1 r); reflexivity. Qed.

Lemma v1_guarded_no_panic : forall valid s fit o, v1_guarded valid s fit o <> Panic.
Proof. intros [] s fit o; unfold v1_guarded; [destruct (v1_dim s) as [d|]; [destruct (fit d)|]|]; discriminate. Qed.
Lemma v1_guarded_call : forall valid s fit o o' d, v1_guarded valid s fit o = Call o' -> v1_dim s = Some d -> fit d = true.
Proof.
  intros valid s fit o o' d H D. unfold v1_guarded in H. rewrite D in H.
  destruct valid; [destruct (fit d)|]; [reflexivity | discriminate..].
Qed.
Lemma v1_guarded_reject : forall valid s fit o,
  valid = false \/ v1_dim s = None \/ (exists d, v1_dim s = Some d /\ fit d = false) ->
  v1_guarded valid s fit o = Reject.
Proof.
  intros valid s fit o [->|[D|(d & D & Hf)]]; unfold v1_guarded; [reflexivity|rewrite D..].
  - destruct valid; reflexivity.
  - rewrite Hf. destruct valid; reflexivity.
Qed.

(* the query the v1 search handler builds reaches the "vector" index and nothing else *)
Lemma eval_reach_v1 : forall s r,
  eval_reach s (v1_query r) = match v1_dim s with Some d => [(d, s1_len r)] | None => [] end.
Proof.
  intros s r. unfold v1_dim. cbn [eval_reach v1_query seq String.eqb Ascii.eqb Bool.eqb].
  destruct (lookup "vector" s) as [iv|]; [|reflexivity].
  destruct (seq (iv_type iv) "vectorVamana").
  - destruct (iv_vamana iv); reflexivity.
  - destruct (seq (iv_type iv) "vectorFlat"); [|destruct (seq (iv_type iv) "text")]; reflexivity.
Qed.

Lemma dimension_guard_v1 : forall s r,
  handler_search1 s r = Call OpSearch ->
  Forall (fun p => fst p = snd p) (eval_reach s (v1_query r)).
Proof.
  intros s r H. rewrite handler_search1_eq in H. rewrite eval_reach_v1.
  destruct (v1_dim s) as [d|] eqn:D; constructor; [|constructor].
  symmetry. apply Z.eqb_eq. exact (v1_guarded_call _ _ _ _ _ d H D).
Qed.

Lemma check_prop_dim : forall iv n af ast d,
  check_prop iv (PArr n af ast) = true -> dim_of iv = Some d -> n = d.
Proof.
  intros iv n af ast d. unfold check_prop, dim_of.
  destruct (seq (iv_type iv) "vectorFlat"); [destruct (iv_flat iv) as [p|] |
    destruct (seq (iv_type iv) "vectorVamana"); [destruct (iv_vamana iv) as [p|] |]]; intros H D; try discriminate;
    injection D as <-; apply andb_true_iff in H as [_ H]; apply Z.eqb_eq, H.
Qed.

(* CheckCompatibleMap validates the value the dispatcher reaches: both resolve the property by the
   nested walk (ccm_resolves_by_nested_walk, dispatch_resolves_by_query) *)
Lemma write_dimension_guard : forall s maxsize create_new p,
  validate_ischema s = true -> point_ok s maxsize create_new p = true ->
  Forall (fun pr => fst pr = snd pr /\ doc_dim_ok (snd pr) = true) (write_reach s p).
Proof.
  intros s maxsize cn p W H. unfold point_ok in H. split_and H.
  unfold check_compatible in H. rewrite forallb_forall in H.
  unfold write_reach. apply Forall_flat_map, Forall_forall. intros [k iv] Hin. specialize (H _ Hin).
  change (check_prop iv (pval_of k p) = true) in H. cbn [fst snd].
  change (if dispatch_resolves_by_query then pval_of k p else POther) with (pval_of k p).
  destruct (dim_of iv) as [d|] eqn:D; [|constructor].
  destruct (pval_of k p) as [| |n af ast| | | | | |]; try constructor; [|constructor].
  destruct (check_prop_dim iv n af ast d H D). split; [reflexivity|]. exact (ischema_dim_doc s k iv n W Hin D).
Qed.

Lemma points_dimension_guard : forall s maxsize create_new pts,
  validate_ischema s = true -> forallb (point_ok s maxsize create_new) pts = true ->
  Forall (fun p => Forall (fun pr => fst pr = snd pr /\ doc_dim_ok (snd pr) = true) (write_reach s p)) pts.
Proof.
  intros s maxsize cn pts W H. rewrite forallb_forall in H. apply Forall_forall. intros p Hp.
  exact (write_dimension_guard s maxsize cn p W (H p Hp)).
Qed.

Lemma write_guard_v1 : forall s r n d,
  handler_insert1 s r = Call (OpInsert n) \/ handler_update1 s r = Call (OpUpdate n) ->
  v1_dim s = Some d -> Forall (fun p => p1_len p = d) (ps1_points r).
Proof.
  intros s r n d H D. rewrite handler_insert1_eq, handler_update1_eq in H.
  assert (F : points1_fit d r = true) by (destruct H as [H|H]; exact (v1_guarded_call _ _ _ _ _ d H D)).
  unfold points1_fit in F. rewrite forallb_forall in F. apply Forall_forall. intros p Hp.
  specialize (F _ Hp). apply andb_true_iff in F as [F _]. apply Z.eqb_eq, F.
Qed.

Lemma guarded_reject : forall flag valid o, flag = true -> valid = false -> guarded flag valid o = Reject.
Proof. intros flag valid o -> ->. reflexivity. Qed.
Lemma guarded_call : forall flag valid o, valid = true -> guarded flag valid o = Call o.
Proof. intros [] valid o ->; reflexivity. Qed.

Lemma invalid_no_effect_v2 :
  (forall r, validate_create2 r = false -> handler_create2 r = Reject) /\
  (forall s r, validate_insert2 s r = false -> handler_insert2 s r = Reject) /\
  (forall s r, validate_update2 s r = false -> handler_update2 s r = Reject) /\
  (forall ids, validate_delete enf_delete_ids_min enf_delete_ids_max enf_delete_ids_uuid ids = false -> handler_delete2 ids = Reject) /\
  (forall s r, validate_search s r = false -> handler_search2 s r = Reject).
Proof. repeat split; intros; (apply guarded_reject; [reflexivity | assumption]). Qed.

Lemma invalid_no_effect_v1 :
  (forall r, validate_create1 r = false -> handler_create1 r = Reject) /\
  (forall s r, validate_insert1 r = false -> handler_insert1 s r = Reject) /\
  (forall s r, validate_update1 r = false -> handler_update1 s r = Reject) /\
  (forall ids, validate_delete enf_v1_delete_ids_min enf_v1_delete_ids_max true ids = false -> handler_delete1 ids = Reject) /\
  (forall s r, validate_search1 r = false -> handler_search1 s r = Reject) /\
  (* a vector whose length differs from the index dimension is refused as well *)
  (forall s r d, v1_dim s = Some d -> points1_fit d r = false ->
                 handler_insert1 s r = Reject /\ handler_update1 s r = Reject) /\
  (forall s r d, v1_dim s = Some d -> s1_len r <> d -> handler_search1 s r = Reject).
Proof.
  repeat split; intros; rewrite ?handler_insert1_eq, ?handler_update1_eq, ?handler_search1_eq;
    try (apply guarded_reject; [reflexivity | assumption]); apply v1_guarded_reject; eauto.
  right. right. exists d. split; [assumption | apply Z.eqb_neq; assumption].
Qed.

(* a collection without a vamana index named "vector" is refused by get / insert / update / search
   before any cluster call *)
Lemma v1_missing_index_rejected : forall s, v1_dim s = None ->
  handler_get1 s = Reject /\ (forall r, handler_insert1 s r = Reject) /\
  (forall r, handler_update1 s r = Reject) /\ (forall r, handler_search1 s r = Reject).
Proof.
  intros s D. split; [unfold handler_get1, handler_get1_gen; rewrite D; reflexivity|].
  repeat split; intros r; rewrite ?handler_insert1_eq, ?handler_update1_eq, ?handler_search1_eq;
    apply v1_guarded_reject; auto.
Qed.

Lemma valid_reaches_cluster :
  (forall r, validate_create2 r = true -> handler_create2 r = Call OpCreate) /\
  (forall s r, validate_insert2 s r = true -> handler_insert2 s r = Call (OpInsert (Z.of_nat (List.length (ps_points r))))) /\
  (forall s r, validate_update2 s r = true -> handler_update2 s r = Call (OpUpdate (Z.of_nat (List.length (ps_points r))))) /\
  (forall s r, validate_search s r = true -> handler_search2 s r = Call OpSearch).
Proof. repeat split; intros; apply guarded_call; assumption. Qed.

(* v1 handlers never panic on a collection created through v1 ... *)
Lemma v1_dim_of_v1_schema : forall r, v1_dim (v1_schema r) = Some (c1_vsize r).
Proof. reflexivity. Qed.

Lemma v1_no_panic : forall s,
  handler_get1 s <> Panic /\ handler_list1 [s] <> Panic /\ (forall r, handler_insert1 s r <> Panic) /\
  (forall r, handler_update1 s r <> Panic) /\ (forall r, handler_search1 s r <> Panic).
Proof.
  intros s. split; [unfold handler_get1, handler_get1_gen; destruct (v1_dim s); discriminate|].
  split; [discriminate|].
  repeat split; intros r; rewrite ?handler_insert1_eq, ?handler_update1_eq, ?handler_search1_eq;
    apply v1_guarded_no_panic.
Qed.

(* ... and a v1 creation builds a schema that passes the v2 validation *)
Lemma v1_schema_valid : forall r, validate_create1 r = true -> validate_ischema (v1_schema r) = true.
Proof.
  intros r H. unfold validate_create1 in H. split_and H.
  unfold validate_ischema, v1_schema. rewrite gate_true by reflexivity. cbn [forallb snd]. rewrite andb_true_r.
  unfold validate_ivalue. cbn [iv_type iv_vamana seq String.eqb Ascii.eqb Bool.eqb].
  apply andb_true_iff. split; [reflexivity|]. rewrite gate_true by reflexivity.
  unfold validate_vamana. cbn [vp_size vp_metric vp_ssize vp_degree vp_alpha vp_quant].
  split_goal; try reflexivity; try use_sub.
  (* haversine is not a v1 metric *)
  unfold haversine_ok. cbn [vp_metric]. apply orb_true_iff. left.
  destruct (seq (c1_metric r) "haversine") eqn:E; [|reflexivity].
  apply seq_eq in E. rewrite E in C. discriminate C.
Qed.

(* accepted requests satisfy the documented limits: the doc_* checkers return no error code *)

Lemma first_code_zero : forall l, Forall (fun p : bool * N => fst p = true) l -> first_code l = 0%N.
Proof.
  induction 1 as [|[b c] l Hb Hl IH]; [reflexivity|]. cbn in *. rewrite Hb. exact IH.
Qed.

Lemma f32_ltb_false : forall a b, f32_is_nan a = false -> f32_is_nan b = false -> f32_ltb a b = false ->
  (f32_to_Q b <= f32_to_Q a)%Q.
Proof. intros a b Ha Hb H. unfold f32_ltb in H. rewrite Ha, Hb in H. apply Qnot_lt_le. intros L%Qltb_lt. now rewrite L in H. Qed.

(* the enforced float32 bounds lie inside the documented rational interval, and an infinite alpha
   (value +-2^200 in f32_to_Q) is outside them *)
Lemma alpha_doc : forall a, alpha_ok a = true -> f32_in_Q doc_alpha_min doc_alpha_max a = true.
Proof.
  intros a H. unfold alpha_ok, alpha_ok_gen in H.
  apply andb_true_iff in H as [H B]. apply andb_true_iff in H as [N A].
  change (negb (f32_is_nan a) = true) in N. apply negb_true_iff in N, A, B.
  apply (f32_ltb_false a enf_alpha_min_f32 N eq_refl) in A. apply (f32_ltb_false enf_alpha_max_f32 a eq_refl N) in B.
  unfold f32_in_Q. rewrite !andb_true_iff. split; [split|].
  - unfold f32_finite. apply negb_true_iff. destruct (f32_exp a =? 255) eqn:E; [exfalso|reflexivity].
    assert (Ea : f32_to_Q a = inject_Z ((if f32_sign a then (-1) else 1) * 2 ^ 200))
      by (unfold f32_to_Q; rewrite E; reflexivity).
    rewrite Ea in A, B. destruct (f32_sign a); [revert A | revert B]; apply Qlt_not_le; reflexivity.
  - apply Qle_bool_iff. eapply Qle_trans; [|exact A]. apply Qle_bool_iff. reflexivity.
  - apply Qle_bool_iff. eapply Qle_trans; [exact B|]. apply Qle_bool_iff. reflexivity.
Qed.

Lemma bq_doc : forall b, validate_bq b = true -> doc_bq b = 0%N.
Proof.
  intros b H. unfold validate_bq, validate_bq_gen in H. apply andb_true_iff in H as [H M].
  change (in_range enf_bq_trigger_min enf_bq_trigger_max (bq_trigger b) = true) in H.
  apply first_code_zero. repeat constructor; cbn [fst]; use_sub.
Qed.

Lemma pq_doc : forall p, validate_pq p = true -> doc_pq p = 0%N.
Proof.
  intros p H. unfold validate_pq in H. split_and H. apply first_code_zero.
  repeat constructor; cbn [fst]; try use_sub.
  apply Z.leb_le. apply Z.leb_le in C0. refine (Z.le_trans _ enf_pq_subvectors_min _ _ C0).
  apply Z.leb_le. reflexivity.
Qed.

Lemma quant_doc : forall o, validate_oquant o = true -> doc_quant o = 0%N.
Proof.
  intros [q|] H; [|reflexivity].
  cbn [validate_oquant] in H. unfold validate_quantizer in H. apply andb_true_iff in H as [M H].
  cbn [doc_quant]. assert (Md : mem (qz_type q) doc_quantizer_types = true) by use_sub. rewrite Md. cbn [negb].
  destruct (qz_binary q) as [b|].
  - destruct (seq (qz_type q) "binary"); [apply bq_doc, H | reflexivity].
  - destruct (qz_product q) as [p|]; [|reflexivity].
    destruct (seq (qz_type q) "product") eqn:Tp; [|reflexivity].
    apply seq_eq in Tp. rewrite Tp in H. apply pq_doc, H.
Qed.

Lemma flat_doc : forall p, validate_flat p = true -> doc_flat p = 0%N.
Proof.
  intros p H. unfold validate_flat in H. split_and H. rewrite gate_true in * by reflexivity.
  apply first_code_zero. repeat constructor; cbn [fst]; try use_sub.
  rewrite quant_doc by assumption. reflexivity.
Qed.

Lemma vamana_doc : forall p, validate_vamana p = true -> doc_vamana p = 0%N.
Proof.
  intros p H. unfold validate_vamana in H. split_and H. rewrite gate_true in * by reflexivity.
  apply first_code_zero. repeat constructor; cbn [fst]; try use_sub.
  - apply alpha_doc; assumption.
  - rewrite quant_doc by assumption. reflexivity.
Qed.

Lemma ivalue_doc : forall v, validate_ivalue v = true -> doc_ivalue v = 0%N.
Proof.
  intros v H. unfold validate_ivalue in H. apply andb_true_iff in H as [M H].
  unfold doc_ivalue. assert (Md : mem (iv_type v) doc_index_types = true) by use_sub. rewrite Md. cbn [negb].
  rewrite ?gate_true in H by reflexivity.
  destruct (seq (iv_type v) "vectorFlat"); [destruct (iv_flat v); [apply flat_doc, H | reflexivity]|].
  destruct (seq (iv_type v) "vectorVamana"); [destruct (iv_vamana v); [apply vamana_doc, H | reflexivity]|].
  destruct (seq (iv_type v) "text"); [|reflexivity]. destruct (iv_text v) as [a|]; [|reflexivity].
  assert (Ma : mem a doc_analysers = true) by use_sub. rewrite Ma. reflexivity.
Qed.

Lemma ischema_doc : forall s,
  forallb (fun kv : string * ivalue => validate_ivalue (snd kv)) s = true -> doc_ischema s = 0%N.
Proof.
  induction s as [|[k v] s IH]; intros H; [reflexivity|].
  cbn [forallb snd] in H. apply andb_true_iff in H as [H1 H2].
  unfold doc_ischema. cbn [fold_right snd]. rewrite (ivalue_doc v H1). apply IH, H2.
Qed.

(* enforced character ranges of collection ids lie inside the documented alphabet *)
Definition ranges_sub (a b : list (N * N)) : bool :=
  forallb (fun r => existsb (fun s => (fst s <=? fst r)%N && (snd r <=? snd s)%N) b) a.
Lemma ranges_sub_runes : forall a b l, ranges_sub a b = true -> runes_ok a l = true -> runes_ok b l = true.
Proof.
  intros a b l S H. unfold runes_ok in *. rewrite forallb_forall in *. intros x Hx.
  specialize (H x Hx). apply existsb_exists in H as [r [Hr Hin]].
  unfold ranges_sub in S. rewrite forallb_forall in S. specialize (S r Hr).
  apply existsb_exists in S as [t [Ht Hsub]].
  apply existsb_exists. exists t. split; [exact Ht|].
  apply andb_true_iff in Hin as [H1 H2]. apply andb_true_iff in Hsub as [H3 H4].
  apply N.leb_le in H1, H2, H3, H4. apply andb_true_iff. split; apply N.leb_le; lia.
Qed.

Lemma create2_doc : forall r, validate_create2 r = true -> nogap_create2 r = true -> doc_create2 r = 0%N.
Proof.
  intros r H G. unfold validate_create2 in H. split_and H. unfold validate_ischema in C.
  rewrite !gate_true in C by reflexivity. unfold nogap_create2 in G.
  apply first_code_zero. repeat constructor; cbn [fst]; try use_sub.
  - apply orb_true_iff. right. exact (ranges_sub_runes enf_v2_collection_id_runes alnum_ranges _ eq_refl C0).
  - rewrite G. apply orb_true_r.
  - rewrite (ischema_doc _ C). reflexivity.
Qed.

(* an accepted vector index never carries a product quantizer that the vector store cannot build *)
Lemma quantizer_fits_buildable : forall p, quantizer_fits p = true -> pq_unbuildable p = false.
Proof.
  intros p H. unfold quantizer_fits in H. unfold pq_unbuildable. destruct (vp_quant p) as [q|]; [|reflexivity].
  destruct (seq (qz_type q) "product"); [|reflexivity]. cbn [andb] in *.
  destruct (seq (vp_metric p) "hamming" || seq (vp_metric p) "jaccard") eqn:E; [reflexivity|]. cbn [negb andb].
  assert (X : mem (vp_metric p) enf_pq_exempt_metrics = false).
  { destruct (mem (vp_metric p) enf_pq_exempt_metrics) eqn:M; [|reflexivity].
    pose proof (sub_list_mem enf_pq_exempt_metrics ["hamming"; "jaccard"]%string _ eq_refl M) as M2.
    unfold mem in M2. cbn [existsb] in M2. unfold seq in E. rewrite orb_false_r in M2. rewrite M2 in E. discriminate. }
  rewrite X in H. cbn [negb] in H. apply andb_true_iff in H as [H D]. rewrite gate_true in D by reflexivity.
  pose proof (sub_list_mem enf_pq_metrics ["euclidean"; "cosine"; "dot"]%string _ eq_refl H) as M2.
  unfold mem in M2. cbn [existsb] in M2. rewrite orb_false_r in M2. unfold seq.
  destruct (qz_product q) as [pq|]; [|reflexivity].
  rewrite D. rewrite <- orb_assoc. rewrite M2. reflexivity.
Qed.

Lemma accepted_index_buildable :
  (forall p, validate_flat p = true -> pq_unbuildable p = false) /\
  (forall p, validate_vamana p = true -> pq_unbuildable p = false).
Proof.
  split; intros p H; [unfold validate_flat in H | unfold validate_vamana in H];
    apply andb_true_iff in H as [_ F]; rewrite gate_true in F by reflexivity;
    apply quantizer_fits_buildable; exact F.
Qed.

(* witness of a former gap: a product quantizer whose sub-vector count does not divide the vector size *)
Definition gap_schema_pq : ischema :=
  [("v"%string, mkIV "vectorFlat" (Some (mkVP 5 "euclidean" 0 0 0%N (Some (mkQz "product" None (Some (mkPQ 4 2 1000)))))) None None false false)].

Lemma ge1_chain : forall a b x, (1 <=? a) = true -> in_range a b x = true -> (1 <=? x) = true.
Proof. intros a b x A B. apply in_range_spec in B. apply Z.leb_le in A. apply Z.leb_le. lia. Qed.
Lemma le_chain : forall a b c x, (b <=? c) = true -> in_range a b x = true -> (x <=? c) = true.
Proof. intros a b c x A B. apply in_range_spec in B. apply Z.leb_le in A. apply Z.leb_le. lia. Qed.

(* the documented form of a ranked leaf, from enforced bounds that lie within the documented ones *)
Lemma ranked_doc : forall vmin vmax ops lmin lmax dvmax dops dlmin dlmax (o : ropts query),
  (1 <=? vmin) = true -> (vmax <=? dvmax) = true -> sub_list ops dops = true ->
  sub_range lmin lmax dlmin dlmax = true ->
  in_range vmin vmax (r_len o) = true -> mem (r_op o) ops = true -> in_range lmin lmax (r_limit o) = true ->
  doc_ranked dvmax dops dlmin dlmax o = true.
Proof.
  intros vmin vmax ops lmin lmax dvmax dops dlmin dlmax o S1 S2 S3 S4 A B C. unfold doc_ranked. split_goal.
  - exact (ge1_chain _ _ _ S1 A).
  - exact (le_chain _ _ _ _ S2 A).
  - exact (sub_list_mem _ _ _ S3 B).
  - exact (sub_range_in _ _ _ _ _ S4 C).
Qed.

Lemma nonzero_ge1 : forall x, (0 <=? x) = true -> negb (x =? 0) = true -> (1 <=? x) = true.
Proof. intros x P H. apply negb_true_iff in H. apply Z.eqb_neq in H. apply Z.leb_le in P. apply Z.leb_le. lia. Qed.

Lemma query_doc : forall q, lens_nonneg q = true -> validate_query q = true -> doc_query q = true.
Proof.
  intros q. induction q as [prop qflat qvam qtext qstr qint qflt qsarr qand qor Hf Hv Ht Ha Ho] using query_ind'.
  intros L H. cbn [validate_query] in H.
  destruct (andb_prop _ _ H) as [[[[[[[[[[[[Vprop Vflat]%andb_prop Vvam]%andb_prop Vtext]%andb_prop Vstr]%andb_prop
    Vint]%andb_prop Vflt]%andb_prop Vsarr]%andb_prop _]%andb_prop _]%andb_prop Vand]%andb_prop Vor]%andb_prop _].
  clear H.
  rewrite gate_true in * by reflexivity.
  cbn [lens_nonneg] in L.
  destruct (andb_prop _ _ L) as [[[[[[Lflat Lvam]%andb_prop Ltext]%andb_prop Lstr]%andb_prop Lsarr]%andb_prop
    Land]%andb_prop Lor]. clear L.
  cbn [doc_query]. split_goal.
  - exact Vprop.
  - destruct qflat as [o|]; [|reflexivity]. split_and Vflat. apply andb_true_iff in Lflat as [_ Lfil].
    apply andb_true_iff. split; [apply (ranked_doc enf_flat_query_vector_min enf_flat_query_vector_max enf_flat_ops
                                          enf_flat_limit_min enf_flat_limit_max); (reflexivity || assumption)|].
    rewrite gate_true in * by reflexivity. cbn in Hf. destruct (r_filter o); [auto | reflexivity].
  - destruct qvam as [o|]; [|reflexivity]. split_and Vvam. apply andb_true_iff in Lvam as [_ Lfil].
    split_goal; [apply (ranked_doc enf_query_vector_min enf_query_vector_max enf_vamana_ops
                          enf_vamana_limit_min enf_vamana_limit_max); (reflexivity || assumption) | use_sub |].
    rewrite gate_true in * by reflexivity. cbn in Hv. destruct (r_filter o); [auto | reflexivity].
  - destruct qtext as [o|]; [|reflexivity]. split_and Vtext. apply andb_true_iff in Ltext as [Llen Lfil].
    rewrite gate_true in * by reflexivity. split_goal; try use_sub.
    + apply nonzero_ge1; assumption.
    + cbn in Ht. destruct (r_filter o); [auto | reflexivity].
  - destruct qstr as [o|]; [|reflexivity]. cbn [oall] in *. unfold validate_string in Vstr. split_and Vstr.
    rewrite gate_true in * by reflexivity. split_goal; [apply nonzero_ge1; assumption | use_sub].
  - destruct qint as [o|]; [|reflexivity]. cbn [oall] in *. unfold validate_integer in Vint. split_and Vint. use_sub.
  - destruct qflt as [o|]; [|reflexivity]. cbn [oall] in *. unfold validate_float in Vflt. split_and Vflt. use_sub.
  - destruct qsarr as [o|]; [|reflexivity]. cbn [oall] in *. unfold validate_sarr in Vsarr. split_and Vsarr.
    rewrite gate_true in * by reflexivity. split_goal; [apply nonzero_ge1; assumption | use_sub].
  - eapply forallb_impl_Forall; [|exact Vand]. rewrite Forall_forall in *. intros x Hx Vx.
    apply Ha; [exact Hx | | exact Vx]. rewrite forallb_forall in Land. auto.
  - eapply forallb_impl_Forall; [|exact Vor]. rewrite Forall_forall in *. intros x Hx Vx.
    apply Ho; [exact Hx | | exact Vx]. rewrite forallb_forall in Lor. auto.
Qed.

Lemma search2_doc : forall r, lens_nonneg (sr_query r) = true -> validate_request r = true -> doc_search2 r = true.
Proof.
  intros r L H. unfold validate_request in H. rewrite !gate_true in H by reflexivity. split_and H.
  unfold doc_search2. split_goal.
  - apply query_doc; assumption.
  - apply Z.leb_le. apply Z.leb_le in C2. refine (Z.le_trans _ enf_sort_max _ C2 _). apply Z.leb_le. reflexivity.
  - assumption.
  - apply Z.leb_le. apply Z.leb_le in C0. refine (Z.le_trans _ enf_offset_min _ _ C0). apply Z.leb_le. reflexivity.
  - use_sub.
Qed.

Lemma count_doc : forall A lo hi d (l : list A),
  sub_range lo hi 1 d = true -> count_ok lo hi l = true -> doc_count d l = true.
Proof. intros A lo hi d l S H. exact (sub_range_in lo hi 1 d _ S H). Qed.

Lemma batch_doc : forall lo hi d (l : list point) rest, sub_range lo hi 1 d = true ->
  count_ok lo hi l && rest = true -> doc_count d l = true.
Proof. intros lo hi d l rest S H. apply andb_true_iff in H as [H _]. exact (count_doc _ _ _ _ _ S H). Qed.

Lemma delete_doc : forall lo hi d ids, sub_range lo hi 1 d = true -> validate_delete lo hi true ids = true ->
  doc_count d ids = true /\ forallb (fun b => b) ids = true.
Proof.
  intros lo hi d ids S H. apply andb_true_iff in H as [H X]. split; [exact (count_doc _ _ _ _ _ S H) | exact X].
Qed.

Lemma points1_doc : forall lo hi vlo vhi cn d dv r, sub_range lo hi 1 d = true -> sub_range vlo vhi 1 dv = true ->
  validate_points1 lo hi vlo vhi cn r = true ->
  doc_count d (ps1_points r) = true /\ forallb (fun p => in_range 1 dv (p1_len p)) (ps1_points r) = true.
Proof.
  intros lo hi vlo vhi cn d dv r S1 S2 H. unfold validate_points1 in H. apply andb_true_iff in H as [H X].
  split; [exact (count_doc _ _ _ _ _ S1 H)|]. rewrite forallb_forall in *. intros p Hp.
  specialize (X p Hp). apply andb_true_iff in X as [_ X]. exact (sub_range_in _ _ _ _ _ S2 X).
Qed.

Lemma points_doc :
  (forall s r, validate_insert2 s r = true -> doc_count doc_points_insert_max (ps_points r) = true) /\
  (forall s r, validate_update2 s r = true -> doc_count doc_points_update_max (ps_points r) = true) /\
  (forall ids, validate_delete enf_delete_ids_min enf_delete_ids_max enf_delete_ids_uuid ids = true ->
               doc_count doc_delete_ids_max ids = true /\ forallb (fun b => b) ids = true) /\
  (forall r, validate_insert1 r = true ->
             doc_count doc_v1_points_insert_max (ps1_points r) = true /\
             forallb (fun p => in_range 1 doc_v1_insert_vector_max (p1_len p)) (ps1_points r) = true) /\
  (forall r, validate_update1 r = true ->
             doc_count doc_v1_points_update_max (ps1_points r) = true /\
             forallb (fun p => in_range 1 doc_v1_update_vector_max (p1_len p)) (ps1_points r) = true) /\
  (forall ids, validate_delete enf_v1_delete_ids_min enf_v1_delete_ids_max true ids = true ->
               doc_count doc_v1_delete_ids_max ids = true /\ forallb (fun b => b) ids = true).
Proof.
  split; [intros s r H; eapply batch_doc; [|exact H]; reflexivity|].
  split; [intros s r H; eapply batch_doc; [|exact H]; reflexivity|].
  split; [intros ids H; eapply delete_doc; [|exact H]; reflexivity|].
  split; [intros r H; eapply points1_doc; [| |exact H]; reflexivity|].
  split; [intros r H; eapply points1_doc; [| |exact H]; reflexivity|].
  intros ids H; eapply delete_doc; [|exact H]; reflexivity.
Qed.

Lemma create1_doc : forall r, validate_create1 r = true -> doc_create1 r = 0%N.
Proof.
  intros r H. unfold validate_create1 in H. split_and H.
  apply first_code_zero. repeat constructor; cbn [fst]; try use_sub.
  apply orb_true_iff. right. exact (ranges_sub_runes enf_v1_collection_id_runes alnum_ranges _ eq_refl C1).
Qed.

Lemma search1_doc : forall r, validate_search1 r = true -> doc_search1 r = true.
Proof.
  intros r H. unfold validate_search1 in H. apply andb_true_iff in H as [H Vl].
  assert (R : in_range 1 doc_v1_search_vector_max (s1_len r) = true) by use_sub.
  unfold doc_search1. rewrite andb_true_iff. split; [exact R | use_sub].
Qed.
