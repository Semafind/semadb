(* Proofs_C14.v -- lemmas for property C14 (start-up rebalancing).

   Shard files and records are two views of a cluster state, each a map from
   (node, key) to a content with an owner per key.  Section View proves once,
   for any such view, what a sequence of transfers preserves; the model's
   file transfer and record-group transfer are then shown to be such steps. *)
From Coq Require Import String List NArith Bool Arith Lia Relations.
From Semadb Require Import Bytes Model_C13 Model_C14.
Import ListNotations.

Section ALFacts.
  Context {K V : Type} (K_dec : forall a b : K, {a = b} + {a <> b}).
  Implicit Types m : list (K * V).

  Lemma al_get_del k' k m :
    al_get K_dec k' (al_del K_dec k m) = if K_dec k' k then None else al_get K_dec k' m.
  Proof.
    induction m as [|[k1 v1] m IH]; cbn.
    - destruct (K_dec k' k); reflexivity.
    - destruct (K_dec k k1) as [->|E]; cbn; rewrite IH.
      + destruct (K_dec k' k1); reflexivity.
      + destruct (K_dec k' k), (K_dec k' k1); congruence.
  Qed.

  Lemma al_get_put k' k v m :
    al_get K_dec k' (al_put K_dec k v m) = if K_dec k' k then Some v else al_get K_dec k' m.
  Proof. unfold al_put. cbn. rewrite al_get_del. destruct (K_dec k' k); reflexivity. Qed.

  Lemma al_get_in_map_fst k m : al_get K_dec k m <> None <-> In k (map fst m).
  Proof.
    induction m as [|[k1 v1] m IH]; cbn.
    - intuition congruence.
    - destruct (K_dec k k1) as [->|E]; [split; [auto|discriminate]|rewrite IH; intuition congruence].
  Qed.

  Lemma al_get_in_keys k m : al_get K_dec k m <> None <-> In k (al_keys K_dec m).
  Proof. unfold al_keys. rewrite nodup_In. apply al_get_in_map_fst. Qed.

  Lemma al_get_filter_key (g : K -> bool) k m :
    al_get K_dec k (filter (fun kv => g (fst kv)) m) = if g k then al_get K_dec k m else None.
  Proof.
    induction m as [|[k1 v1] m IH]; cbn.
    - destruct (g k); reflexivity.
    - destruct (g k1) eqn:G1; cbn; destruct (K_dec k k1) as [->|E]; rewrite ?G1 in *; auto.
  Qed.
End ALFacts.

Section St.
  Context {A : Type}.
  Implicit Types st : state A.

  Lemma file_set_file st n p c n' p' :
    file (set_file st n p c) n' p' =
    if node_dec n' n then (if path_dec p' p then Some c else file st n' p') else file st n' p'.
  Proof.
    unfold file, set_file, upd. destruct (node_dec n' n) as [->|E]; [apply al_get_put|reflexivity].
  Qed.
  Lemma file_del_file st n p n' p' :
    file (del_file st n p) n' p' =
    if node_dec n' n then (if path_dec p' p then None else file st n' p') else file st n' p'.
  Proof.
    unfold file, del_file, upd. destruct (node_dec n' n) as [->|E]; [apply al_get_del|reflexivity].
  Qed.
  Lemma rec_put_rec st n k v n' k' :
    rec_ (put_rec st n k v) n' k' =
    if node_dec n' n then (if key_dec k' k then Some v else rec_ st n' k') else rec_ st n' k'.
  Proof.
    unfold rec_, put_rec, upd. destruct (node_dec n' n) as [->|E]; [apply al_get_put|reflexivity].
  Qed.
  Lemma rec_del_rec st n k n' k' :
    rec_ (del_rec st n k) n' k' =
    if node_dec n' n then (if key_dec k' k then None else rec_ st n' k') else rec_ st n' k'.
  Proof.
    unfold rec_, del_rec, upd. destruct (node_dec n' n) as [->|E]; [apply al_get_del|reflexivity].
  Qed.
  Lemma rec_set_file st n p c n' k : rec_ (set_file st n p c) n' k = rec_ st n' k.
  Proof. unfold rec_, set_file, upd. destruct (node_dec n' n) as [->|]; reflexivity. Qed.
  Lemma rec_del_file st n p n' k : rec_ (del_file st n p) n' k = rec_ st n' k.
  Proof. unfold rec_, del_file, upd. destruct (node_dec n' n) as [->|]; reflexivity. Qed.
  Lemma file_put_rec st n k v n' p : file (put_rec st n k v) n' p = file st n' p.
  Proof. unfold file, put_rec, upd. destruct (node_dec n' n) as [->|]; reflexivity. Qed.
  Lemma file_del_rec st n k n' p : file (del_rec st n k) n' p = file st n' p.
  Proof. unfold file, del_rec, upd. destruct (node_dec n' n) as [->|]; reflexivity. Qed.

  Lemma once_agree st : once_files st -> agree_files st.
  Proof. intros On n1 n2 p f1 f2 H1 H2. rewrite (On n1 n2 p) in H1; congruence. Qed.
End St.

(* a lookup in an updated state becomes nested equality tests; decide them all *)
Ltac fsimp :=
  repeat (rewrite ?file_set_file, ?file_del_file, ?rec_set_file, ?rec_del_file,
                  ?file_put_rec, ?file_del_rec, ?rec_put_rec, ?rec_del_rec);
  repeat match goal with
         | |- context [node_dec ?a ?b] => destruct (node_dec a b); subst
         | |- context [path_dec ?a ?b] => destruct (path_dec a b); subst
         | |- context [key_dec ?a ?b] => destruct (key_dec a b); subst
         end; try congruence.

Definition ceil_div (a b : nat) : nat := ((a + b - 1) / b)%nat.

Section Chunks.
  Context {A : Type} (chunk : nat) (chunk_pos : (1 <= chunk)%nat).
  Notation data_chunks := (data_chunks chunk).
  Notation rpc_chunks := (rpc_chunks chunk).
  Implicit Types f : list A.

  Lemma data_chunks_concat fuel f : (length f <= fuel)%nat -> concat (data_chunks fuel f) = f.
  Proof.
    revert f. induction fuel as [|n IH]; intros [|a f] Hl; cbn [length] in Hl; try reflexivity; [lia|].
    cbn [Model_C14.data_chunks concat]. rewrite IH by (rewrite skipn_length; cbn [length]; lia).
    apply firstn_skipn.
  Qed.

  Lemma data_chunks_Forall fuel f : Forall (fun c => c <> [] /\ (length c <= chunk)%nat) (data_chunks fuel f).
  Proof.
    revert f. induction fuel as [|n IH]; intros [|a f]; cbn [Model_C14.data_chunks]; try constructor; [|apply IH].
    split; [|rewrite firstn_length; lia]. destruct chunk; [lia|discriminate].
  Qed.

  Lemma ceil_div_0 : ceil_div 0 chunk = 0%nat.
  Proof. apply Nat.div_small. lia. Qed.

  Lemma ceil_div_step a : (0 < a)%nat -> ceil_div a chunk = S (ceil_div (a - chunk) chunk).
  Proof.
    intros Ha. unfold ceil_div.
    replace (a + chunk - 1)%nat with (a - 1 + 1 * chunk)%nat by lia. rewrite Nat.div_add by lia.
    destruct (le_lt_dec a chunk).
    - rewrite !Nat.div_small by lia. reflexivity.
    - replace (a - chunk + chunk - 1)%nat with (a - 1)%nat by lia. lia.
  Qed.

  Lemma data_chunks_length fuel f :
    (length f <= fuel)%nat -> length (data_chunks fuel f) = ceil_div (length f) chunk.
  Proof.
    revert f. induction fuel as [|n IH]; intros [|a f] Hl; cbn [length] in Hl;
      try (symmetry; apply ceil_div_0); [lia|].
    cbn [Model_C14.data_chunks length]. rewrite IH by (rewrite skipn_length; cbn [length]; lia).
    rewrite skipn_length, (ceil_div_step (S (length f))) by lia. reflexivity.
  Qed.

  Lemma rpc_chunks_spec f :
    concat (rpc_chunks f) = f /\
    length (rpc_chunks f) = S (ceil_div (length f) chunk) /\
    (exists ds, rpc_chunks f = ds ++ [[]] /\
                Forall (fun c => c <> [] /\ (length c <= chunk)%nat) ds /\ (f <> [] -> ds <> [])).
  Proof.
    unfold Model_C14.rpc_chunks. split; [|split].
    - rewrite concat_app, data_chunks_concat by lia. apply app_nil_r.
    - rewrite app_length, data_chunks_length by lia. apply Nat.add_1_r.
    - exists (data_chunks (length f) f). split; [reflexivity|]. split; [apply data_chunks_Forall|].
      destruct f; [congruence|discriminate].
  Qed.
End Chunks.

(* a view [g] of the states: who holds what under key k, owned by [own k] *)
Section View.
  Context {A K V : Type} (g : state A -> node -> K -> option V) (own : K -> node).
  Implicit Types st : state A.

  Definition agree st := forall n1 n2 k v1 v2, g st n1 k = Some v1 -> g st n2 k = Some v2 -> v1 = v2.

  (* what one transfer does to the copies of one key: nothing, or a non-owner
     [src] holding v is the source, the others are untouched, and either src
     keeps v (the owner's copy is then arbitrary: a partial file) or src has
     dropped it and the owner holds v *)
  Definition kstep st st' k : Prop :=
    (forall n, g st' n k = g st n k) \/
    exists src v, src <> own k /\ g st src k = Some v /\
      (forall n, n <> src -> n <> own k -> g st' n k = g st n k) /\
      (g st' src k = Some v \/ g st' src k = None /\ g st' (own k) k = Some v).
  Definition vstep st st' := forall k, kstep st st' k.
  Definition vsteps := clos_refl_trans _ vstep.

  (* copies on non-owners are originals; every original is still on a non-owner
     or has reached the owner; no key has appeared *)
  Definition inv_on st0 st :=
    (forall n k w, n <> own k -> g st n k = Some w -> exists n0, g st0 n0 k = Some w) /\
    (forall n0 k v, g st0 n0 k = Some v ->
       (exists n, n <> own k /\ g st n k = Some v) \/ g st (own k) k = Some v) /\
    (forall n k w, g st n k = Some w -> exists n0 v, g st0 n0 k = Some v).

  Definition clean st s := forall k, own k <> s -> g st s k = None.

  Lemma vstep_same st st' : (forall n k, g st' n k = g st n k) -> vstep st st'.
  Proof. intros E k. left. intros n. apply E. Qed.

  Lemma inv_on_refl st0 : inv_on st0 st0.
  Proof.
    split; [|split]; eauto.
    intros n0 k v Hv. destruct (node_dec n0 (own k)) as [->|]; eauto.
  Qed.

  Lemma inv_on_step st0 st st' : agree st0 -> inv_on st0 st -> vstep st st' -> inv_on st0 st'.
  Proof.
    intros Hag (I1 & I2 & I3) S. split; [|split].
    - intros n k w Hn Hw. destruct (S k) as [E|(src & v & Hs & Hv & Hoth & Hsrc)].
      + rewrite E in Hw. eauto.
      + destruct (node_dec n src) as [->|Hns]; [|rewrite Hoth in Hw by assumption; eauto].
        destruct Hsrc as [E|[E _]]; rewrite E in Hw; [|discriminate]. injection Hw as <-. eauto.
    - intros n0 k v0 H0. destruct (S k) as [E|(src & v & Hs & Hv & Hoth & Hsrc)].
      + destruct (I2 _ _ _ H0) as [(n & Hn & En)|R]; [left; exists n|right]; rewrite E; auto.
      + (* v is an original, hence v0 *)
        destruct (I1 _ _ _ Hs Hv) as [n1 H1]. rewrite (Hag _ _ _ _ _ H0 H1).
        destruct Hsrc as [E|[_ E]]; eauto.
    - intros n k w Hw. destruct (S k) as [E|(src & v & Hs & Hv & _)].
      + rewrite E in Hw. eauto.
      + destruct (I1 _ _ _ Hs Hv) as [n1 H1]. eauto.
  Qed.

  Lemma none_step st st' s k : vstep st st' -> own k <> s -> g st s k = None -> g st' s k = None.
  Proof.
    intros S Ho Hn. destruct (S k) as [E|(src & v & _ & Hv & Hoth & _)].
    - rewrite E. exact Hn.
    - rewrite Hoth; congruence.
  Qed.

  Lemma inv_on_vsteps st0 st st' : agree st0 -> vsteps st st' -> inv_on st0 st -> inv_on st0 st'.
  Proof. intros Hag M. induction M; eauto using inv_on_step. Qed.
  Lemma none_vsteps st st' s k : vsteps st st' -> own k <> s -> g st s k = None -> g st' s k = None.
  Proof. intros M Ho. induction M; eauto using none_step. Qed.
  Lemma clean_vsteps st st' s : vsteps st st' -> clean st s -> clean st' s.
  Proof. intros M C k Hk. eapply none_vsteps; eauto. Qed.

  Lemma kept st0 st n0 k v : inv_on st0 st -> g st0 n0 k = Some v -> exists n, g st n k = Some v.
  Proof. intros (_ & I2 & _) H0. destruct (I2 _ _ _ H0) as [(n & _ & E)|R]; eauto. Qed.

  Lemma settled st0 st : inv_on st0 st -> (forall n, clean st n) ->
    (forall n0 k v, g st0 n0 k = Some v -> g st (own k) k = Some v) /\
    (forall n k w, g st n k = Some w -> n = own k /\ exists n0, g st0 n0 k = Some w).
  Proof.
    intros (_ & I2 & I3) C.
    assert (HF : forall n0 k v, g st0 n0 k = Some v -> g st (own k) k = Some v).
    { intros n0 k v H0. destruct (I2 _ _ _ H0) as [(n & Hn & E)|R]; [|exact R].
      rewrite C in E by auto. discriminate. }
    split; [exact HF|]. intros n k w Hw.
    destruct (node_dec n (own k)) as [->|Hn]; [|rewrite C in Hw by auto; discriminate].
    split; [reflexivity|]. destruct (I3 _ _ _ Hw) as (n0 & v & H0). exists n0.
    rewrite (HF _ _ _ H0) in Hw. congruence.
  Qed.
End View.

Section Send.
  Context {A H : Type}.
  Variable H_dec : forall a b : H, {a = b} + {a <> b}.
  Variable hash : list A -> H.
  Variable h0 : H.
  Variable chunk : nat.
  Implicit Types (st : state A) (f : list A).

  Notation rpc_chunks := (rpc_chunks chunk).
  Notation send_loop := (send_loop hash h0).
  Notation send_file := (send_file H_dec hash h0 chunk).
  Notation retries := (retries H_dec hash h0 chunk).

  (* what the receiver appends chunk i to *)
  Definition eff_base (fixed : bool) (i : nat) (cur : option (list A)) : list A :=
    match cur with None => [] | Some c => if fixed && (i =? 0)%nat then [] else c end.

  Lemma eff_base_S fixed i c : eff_base fixed (S i) (Some c) = c.
  Proof. destruct fixed; reflexivity. Qed.

  (* the reply to the terminal empty chunk carries a checksum only if its index is > 0 *)
  Lemma send_loop_through fixed fa : forall ds i cur ck,
    (forall j, (i <= j <= i + length ds)%nat -> fails_at fa j = false) ->
    send_loop fixed fa i (ds ++ [[]]) cur ck =
    let c := eff_base fixed i cur ++ concat ds in
    (Some c, Some (if (0 <? i + length ds)%nat then hash c else h0)).
  Proof.
    induction ds as [|d ds IH]; intros i cur ck Hf; cbn [app Model_C14.send_loop];
      rewrite (Hf i) by lia; unfold recv_chunk; fold (eff_base fixed i cur).
    - cbn. rewrite !app_nil_r, Nat.add_0_r, andb_true_r. reflexivity.
    - rewrite IH by (intros j Hj; apply Hf; cbn [length]; lia).
      rewrite eff_base_S. cbn [concat length]. rewrite <- app_assoc, Nat.add_succ_r. reflexivity.
  Qed.

  Lemma send_loop_fault fixed k : forall cs i cur ck, (i <= k < i + length cs)%nat ->
    send_loop fixed (Some k) i cs cur ck =
    (match (k - i)%nat with
     | O => cur
     | S _ => Some (eff_base fixed i cur ++ concat (firstn (k - i) cs))
     end, None).
  Proof.
    induction cs as [|c cs IH]; intros i cur ck Hk; cbn [length] in Hk; [lia|].
    cbn [Model_C14.send_loop fails_at]. destruct (Nat.eqb_spec k i) as [->|Hne].
    - rewrite Nat.sub_diag. reflexivity.
    - unfold recv_chunk; fold (eff_base fixed i cur). rewrite IH, eff_base_S by lia.
      replace (k - i)%nat with (S (k - S i)) by lia. cbn [firstn concat].
      destruct (k - S i)%nat; [cbn; rewrite app_nil_r|rewrite app_assoc]; reflexivity.
  Qed.

  Lemma fault_cases fa n :
    (exists k, fa = Some k /\ (k < n)%nat) \/ (forall j, (j < n)%nat -> fails_at fa j = false).
  Proof.
    destruct fa as [k|]; [destruct (le_lt_dec n k)|]; [right|left; eauto|right]; intros j Hj; [|reflexivity].
    apply Nat.eqb_neq. lia.
  Qed.

  Lemma send_file_absent fixed fa src dst p st : file st src p = None -> send_file fixed fa src dst p st = (st, false).
  Proof. intros E. unfold Model_C14.send_file. rewrite E. reflexivity. Qed.

  Lemma send_file_fault fixed k src dst p st f :
    file st src p = Some f -> (k < length (rpc_chunks f))%nat ->
    send_file fixed (Some k) src dst p st =
    (match k, file st dst p with
     | O, None => st
     | O, Some c => set_file st dst p c
     | S _, cur => set_file st dst p (eff_base fixed 0 cur ++ concat (firstn k (rpc_chunks f)))
     end, false).
  Proof.
    intros Ef Hk. unfold Model_C14.send_file. rewrite Ef, send_loop_fault, Nat.sub_0_r by lia.
    destruct k; [destruct (file st dst p)|]; reflexivity.
  Qed.

  Hypothesis chunk_pos : (1 <= chunk)%nat.

  Lemma send_file_through fixed fa src dst p st f :
    file st src p = Some f -> (forall j, (j < length (rpc_chunks f))%nat -> fails_at fa j = false) ->
    send_file fixed fa src dst p st =
    let c := eff_base fixed 0 (file st dst p) ++ f in
    let st1 := set_file st dst p c in
    if fails_at fa (length (rpc_chunks f)) then (st1, false)
    else if H_dec (match f with [] => h0 | _ => hash c end) (hash f) then (del_file st1 src p, true)
         else (st1, false).
  Proof.
    intros Ef Hfa. unfold Model_C14.send_file. rewrite Ef. unfold Model_C14.rpc_chunks in *.
    rewrite send_loop_through by (intros j Hj; apply Hfa; rewrite app_length; cbn; lia).
    rewrite (data_chunks_concat chunk chunk_pos) by lia. destruct f; reflexivity.
  Qed.

  Lemma send_file_cases fixed fa src dst p st f : file st src p = Some f ->
    send_file fixed fa src dst p st = (st, false) \/
    (exists c, send_file fixed fa src dst p st = (set_file st dst p c, false)) \/
    (exists c, send_file fixed fa src dst p st = (del_file (set_file st dst p c) src p, true) /\
               (f <> [] -> hash c = hash f) /\ (fixed = true -> c = f)).
  Proof.
    intros Ef. destruct (fault_cases fa (length (rpc_chunks f))) as [(k & -> & Hk)|Hfa].
    - rewrite (send_file_fault _ _ _ _ _ _ _ Ef Hk). destruct k; [destruct (file st dst p)|]; eauto.
    - rewrite (send_file_through _ _ _ _ _ _ _ Ef Hfa). cbv zeta.
      destruct (fails_at _ _); [eauto|]. destruct (H_dec _ _) as [E|E]; [|eauto].
      right; right. eexists. split; [reflexivity|]. split.
      + intros Hf. destruct f; [congruence|exact E].
      + intros ->. destruct (file st dst p); reflexivity.
  Qed.

  Lemma send_file_other fixed fa src dst p st n q :
    n <> src -> n <> dst -> file (fst (send_file fixed fa src dst p st)) n q = file st n q.
  Proof.
    intros Hs Hd. destruct (file st src p) as [f|] eqn:Ef; [|rewrite send_file_absent by assumption; reflexivity].
    destruct (send_file_cases fixed fa src dst p st f Ef) as [E|[(c & E)|(c & E & _)]]; rewrite E; cbn [fst]; fsimp.
  Qed.

  Lemma source_removed fixed fa src dst p st f :
    file st src p = Some f -> file (fst (send_file fixed fa src dst p st)) src p = None ->
    exists c, send_file fixed fa src dst p st = (del_file (set_file st dst p c) src p, true) /\
              (f <> [] -> hash c = hash f) /\ (fixed = true -> c = f).
  Proof.
    intros Ef Hrm. destruct (send_file_cases fixed fa src dst p st f Ef) as [E|[(c & E)|R]]; [| |exact R];
      rewrite E in Hrm; cbn [fst] in Hrm; revert Hrm; fsimp.
  Qed.

  Lemma send_file_ff fixed src dst p st f :
    file st src p = Some f -> f <> [] -> fixed = true \/ file st dst p = None ->
    send_file fixed None src dst p st = (del_file (set_file st dst p f) src p, true).
  Proof.
    intros Ef Hf Hr. rewrite (send_file_through _ _ _ _ _ _ _ Ef) by reflexivity.
    replace (eff_base fixed 0 (file st dst p)) with (@nil A)
      by (destruct Hr as [-> | ->]; [destruct (file st dst p)|]; reflexivity).
    cbn. destruct f; [congruence|]. destruct (H_dec _ _); congruence.
  Qed.

  Lemma send_file_append src dst p st c f :
    file st src p = Some f -> f <> [] -> file st dst p = Some c -> hash (c ++ f) <> hash f ->
    send_file false None src dst p st = (set_file st dst p (c ++ f), false).
  Proof.
    intros Ef Hf Ec Hh. rewrite (send_file_through _ _ _ _ _ _ _ Ef), Ec by reflexivity.
    cbn. destruct f; [congruence|]. destruct (H_dec _ _); congruence.
  Qed.

  Lemma retries_append src dst p st c f :
    src <> dst -> file st src p = Some f -> f <> [] -> file st dst p = Some c -> c <> [] ->
    (forall g, hash g = hash f -> g = f) ->
    forall n, file (retries false n src dst p st) src p = Some f /\
              (exists g, file (retries false n src dst p st) dst p = Some (c ++ g) /\
                         length g = (n * length f)%nat) /\
              snd (send_file false None src dst p (retries false n src dst p st)) = false.
  Proof.
    intros Hsd Ef Hf Ec Hc Hinj.
    assert (Hstep : forall st1 g, file st1 src p = Some f -> file st1 dst p = Some (c ++ g) ->
              send_file false None src dst p st1 = (set_file st1 dst p ((c ++ g) ++ f), false)).
    { intros st1 g E1 E2. apply send_file_append; auto.
      intros Hh. apply Hinj, (f_equal (@length A)) in Hh.
      rewrite !app_length in Hh. destruct c; [congruence|cbn in Hh; lia]. }
    assert (Hn : forall n, file (retries false n src dst p st) src p = Some f /\
              exists g, file (retries false n src dst p st) dst p = Some (c ++ g) /\
                        length g = (n * length f)%nat).
    { induction n as [|n (I1 & g & I2 & I3)]; cbn [Model_C14.retries].
      - split; [exact Ef|]. exists []. rewrite app_nil_r. auto.
      - rewrite (Hstep _ g I1 I2). cbn [fst]. split; [fsimp|]. exists (g ++ f).
        rewrite app_length, I3, app_assoc. split; [fsimp|lia]. }
    intros n. destruct (Hn n) as (I1 & g & I2 & I3). rewrite (Hstep _ g I1 I2). eauto.
  Qed.

  Lemma interrupted_partial fixed src dst p st f k :
    file st src p = Some f -> f <> [] -> file st dst p = None -> (1 <= k < length (rpc_chunks f))%nat ->
    let c := concat (firstn k (rpc_chunks f)) in
    send_file fixed (Some k) src dst p st = (set_file st dst p c, false) /\ c <> [].
  Proof.
    intros Ef Hf Ed Hk. rewrite (send_file_fault _ _ _ _ _ _ _ Ef), Ed by lia.
    destruct k as [|k]; [lia|]. split; [reflexivity|].
    destruct f as [|a f]; [congruence|]. cbn. destruct chunk; [lia|discriminate].
  Qed.
End Send.

Section Sync.
  Context {A H : Type}.
  Variable H_dec : forall a b : H, {a = b} + {a <> b}.
  Variable hash : list A -> H.
  Variable h0 : H.
  Variable chunk : nat.
  Variable owner_r : key -> node.
  Variable owner_f : path -> node.
  Implicit Types st : state A.

  Notation send_file := (send_file H_dec hash h0 chunk).
  Notation send_group := (send_group owner_r).
  Notation reach := (reach H_dec hash h0 chunk owner_r owner_f).
  Notation step := (step H_dec hash h0 chunk owner_r owner_f).
  Notation shards_loop := (shards_loop H_dec hash h0 chunk owner_f).
  Notation sync_shards := (sync_shards H_dec hash h0 chunk owner_f).
  Notation groups_loop := (groups_loop owner_r).
  Notation sync_records := (sync_records owner_r).
  Notation sync_node := (sync_node H_dec hash h0 chunk owner_r owner_f).
  Notation sync_all := (sync_all H_dec hash h0 chunk owner_r owner_f).
  Notation run_phases := (run_phases H_dec hash h0 chunk owner_r owner_f).
  Notation run_phase := (run_phase H_dec hash h0 chunk owner_r owner_f).
  Notation collision_free := (collision_free hash).

  Lemma rec_put_all st d grp n k :
    rec_ (put_all st d grp) n k =
    if node_dec n d then match al_get key_dec k grp with Some v => Some v | None => rec_ st n k end
    else rec_ st n k.
  Proof.
    induction grp as [|[k1 v1] grp IH]; cbn [put_all fold_right al_get fst snd].
    - destruct (node_dec n d); reflexivity.
    - fold (put_all st d grp). rewrite rec_put_rec, IH.
      destruct (node_dec n d); [|reflexivity]. destruct (key_dec k k1); reflexivity.
  Qed.
  Lemma rec_del_all st s (grp : list (key * value)) n k :
    rec_ (del_all st s (map fst grp)) n k =
    if node_dec n s then match al_get key_dec k grp with Some _ => None | None => rec_ st n k end
    else rec_ st n k.
  Proof.
    induction grp as [|[k1 v1] grp IH]; cbn [del_all fold_right map al_get fst].
    - destruct (node_dec n s); reflexivity.
    - fold (del_all st s (map fst grp)). rewrite rec_del_rec, IH.
      destruct (node_dec n s); [|reflexivity]. destruct (key_dec k k1); reflexivity.
  Qed.
  Lemma file_put_all st d grp n p : file (put_all st d grp) n p = file st n p.
  Proof.
    induction grp as [|[k1 v1] grp IH]; cbn [put_all fold_right]; [reflexivity|].
    fold (put_all st d grp). rewrite file_put_rec. exact IH.
  Qed.
  Lemma file_del_all st s ks n p : file (del_all st s ks) n p = file st n p.
  Proof.
    induction ks as [|k1 ks IH]; cbn [del_all fold_right]; [reflexivity|].
    fold (del_all st s ks). rewrite file_del_rec. exact IH.
  Qed.

  Lemma get_group st s d k :
    al_get key_dec k (group_of owner_r d (recs (st s))) = if node_dec (owner_r k) d then rec_ st s k else None.
  Proof.
    unfold group_of, rec_.
    rewrite (al_get_filter_key key_dec (fun k => if node_dec (owner_r k) d then true else false)).
    destruct (node_dec (owner_r k) d); reflexivity.
  Qed.

  Lemma file_send_group rf src d st n p : file (fst (send_group rf src d st)) n p = file st n p.
  Proof. unfold Model_C14.send_group. destruct rf; cbn [fst]; rewrite ?file_del_all, ?file_put_all; reflexivity. Qed.

  Lemma send_group_ok rf src d st : snd (send_group rf src d st) = match rf with RNone => true | _ => false end.
  Proof. unfold Model_C14.send_group. destruct rf; reflexivity. Qed.

  Lemma rec_send_group rf src d st n k :
    rec_ (fst (send_group rf src d st)) n k =
    match rf, (if node_dec (owner_r k) d then rec_ st src k else None) with
    | RNone, Some v => if node_dec n src then None else if node_dec n d then Some v else rec_ st n k
    | RFailDelete, Some v => if node_dec n d then Some v else rec_ st n k
    | _, _ => rec_ st n k
    end.
  Proof.
    unfold Model_C14.send_group. destruct rf; cbn [fst]; rewrite ?rec_del_all, ?rec_put_all, ?get_group;
      destruct (node_dec (owner_r k) d); try destruct (rec_ st src k); repeat destruct (node_dec n _); reflexivity.
  Qed.

  Lemma to_move_spec s st p : In p (to_move owner_f s st) <-> owner_f p <> s /\ file st s p <> None.
  Proof.
    unfold to_move. rewrite filter_In, <- (al_get_in_keys path_dec). unfold file.
    destruct (node_dec (owner_f p) s); intuition congruence.
  Qed.

  Lemma rec_dests_spec s st d :
    In d (rec_dests owner_r s st) <-> d <> s /\ exists k, owner_r k = d /\ rec_ st s k <> None.
  Proof.
    unfold rec_dests, rec_. rewrite nodup_In, filter_In, in_map_iff. split.
    - intros [(kv & E & Hin) Hd]. split; [destruct (node_dec d s); [discriminate|assumption]|].
      exists (fst kv). split; [exact E|]. apply al_get_in_map_fst, in_map, Hin.
    - intros [Hd (k & E & Hk)]. split; [|destruct (node_dec d s); [contradiction|reflexivity]].
      apply al_get_in_map_fst, in_map_iff in Hk. destruct Hk as (kv & <- & Hin). eauto.
  Qed.

  Lemma reach_trans fixed a b c : reach fixed a b -> reach fixed b c -> reach fixed a c.
  Proof. intros Hab Hbc. apply clos_rt_rtn1. eapply rt_trans; apply clos_rtn1_rt; eassumption. Qed.
  Lemma reach_step fixed a b c : step fixed a b -> reach fixed b c -> reach fixed a c.
  Proof. intros S. apply reach_trans. eapply Relation_Operators.rtn1_trans; [exact S|apply rtn1_refl]. Qed.

  Lemma shards_loop_reach fixed ff s : forall ps dead st,
    (forall p, In p ps -> owner_f p <> s) -> reach fixed st (fst (shards_loop fixed ff s ps dead st)).
  Proof.
    induction ps as [|p ps IH]; intros dead st Hps; cbn [Model_C14.shards_loop]; [apply rtn1_refl|].
    assert (Hr : forall dead st, reach fixed st (fst (shards_loop fixed ff s ps dead st)))
      by auto using in_cons.
    destruct (in_dec node_dec (owner_f p) dead); [apply Hr|].
    rewrite (surjective_pairing (send_file fixed (ff p) s (owner_f p) p st)).
    eapply reach_step; [|apply Hr]. constructor. intros E. apply (Hps p); [left; reflexivity|congruence].
  Qed.

  Lemma sync_shards_reach fixed ff s st : reach fixed st (fst (sync_shards fixed ff s st)).
  Proof.
    unfold Model_C14.sync_shards.
    pose proof (shards_loop_reach fixed ff s (to_move owner_f s st) [] st) as R.
    destruct (shards_loop fixed ff s (to_move owner_f s st) [] st) as [st' dead].
    apply R. intros p Hp. apply to_move_spec in Hp. tauto.
  Qed.

  Lemma groups_loop_reach fixed rf s : forall ds st ok,
    (forall d, In d ds -> d <> s) -> reach fixed st (fst (groups_loop rf s ds st ok)).
  Proof.
    induction ds as [|d ds IH]; intros st ok Hds; cbn [Model_C14.groups_loop]; [apply rtn1_refl|].
    rewrite (surjective_pairing (send_group (rf d) s d st)).
    eapply reach_step; [|apply IH; auto using in_cons].
    constructor. intros E. apply (Hds d); [left; reflexivity|congruence].
  Qed.

  Lemma sync_records_reach fixed rf s st : reach fixed st (fst (sync_records rf s st)).
  Proof. apply groups_loop_reach. intros d Hd. apply rec_dests_spec in Hd. tauto. Qed.

  Lemma sync_node_reach fixed nf s st : reach fixed st (fst (sync_node fixed nf s st)).
  Proof.
    unfold Model_C14.sync_node.
    pose proof (sync_records_reach fixed (nf_rec nf) s st) as R1.
    destruct (sync_records (nf_rec nf) s st) as [st1 ok1]. destruct ok1, (nf_crash nf); try exact R1.
    eapply reach_trans; [exact R1|apply sync_shards_reach].
  Qed.

  Lemma sync_all_reach fixed : forall plan st, reach fixed st (fst (sync_all fixed plan st)).
  Proof.
    induction plan as [|[s nf] plan IH]; intros st; cbn [Model_C14.sync_all]; [apply rtn1_refl|].
    pose proof (sync_node_reach fixed nf s st) as R1.
    destruct (sync_node fixed nf s st) as [st1 ok]. specialize (IH st1).
    destruct (sync_all fixed plan st1) as [st2 oks]. eapply reach_trans; eassumption.
  Qed.

  Lemma run_phases_reach fixed : forall sched st, reach fixed st (run_phases fixed sched st).
  Proof.
    induction sched as [|ph sched IH]; intros st; cbn [Model_C14.run_phases fold_left]; [apply rtn1_refl|].
    eapply reach_trans; [|apply IH].
    destruct ph; [apply sync_records_reach|apply sync_shards_reach].
  Qed.

  (* the runs depend on the routing functions only through their values *)
  Section Ext.
    Variable owner_r' : key -> node.
    Variable owner_f' : path -> node.
    Hypothesis Er : forall k, owner_r' k = owner_r k.
    Hypothesis Ef : forall p, owner_f' p = owner_f p.

    Lemma shards_loop_ext fixed ff s : forall ps dead st,
      Model_C14.shards_loop H_dec hash h0 chunk owner_f' fixed ff s ps dead st = shards_loop fixed ff s ps dead st.
    Proof.
      induction ps as [|p ps IH]; intros dead st; cbn [Model_C14.shards_loop]; [reflexivity|]. rewrite Ef.
      destruct (in_dec node_dec (owner_f p) dead); [apply IH|]. destruct (send_file _ _ _ _ _ _); apply IH.
    Qed.

    Lemma sync_shards_ext fixed ff s st :
      Model_C14.sync_shards H_dec hash h0 chunk owner_f' fixed ff s st = sync_shards fixed ff s st.
    Proof.
      unfold Model_C14.sync_shards. rewrite shards_loop_ext.
      replace (to_move owner_f' s st) with (to_move owner_f s st); [reflexivity|].
      apply filter_ext. intros p. rewrite Ef. reflexivity.
    Qed.

    Lemma send_group_ext rf s d st : Model_C14.send_group owner_r' rf s d st = send_group rf s d st.
    Proof.
      unfold Model_C14.send_group.
      replace (group_of owner_r' d (recs (st s))) with (group_of owner_r d (recs (st s))); [reflexivity|].
      apply filter_ext. intros kv. rewrite Er. reflexivity.
    Qed.

    Lemma groups_loop_ext rf s : forall ds st ok,
      Model_C14.groups_loop owner_r' rf s ds st ok = groups_loop rf s ds st ok.
    Proof.
      induction ds as [|d ds IH]; intros st ok; cbn [Model_C14.groups_loop]; [reflexivity|].
      rewrite send_group_ext. destruct (send_group _ _ _ _). apply IH.
    Qed.

    Lemma sync_records_ext rf s st : Model_C14.sync_records owner_r' rf s st = sync_records rf s st.
    Proof.
      unfold Model_C14.sync_records. rewrite groups_loop_ext.
      replace (rec_dests owner_r' s st) with (rec_dests owner_r s st); [reflexivity|].
      unfold rec_dests. do 2 f_equal. apply map_ext. intros kv. symmetry. apply Er.
    Qed.

    Lemma sync_all_ext fixed : forall plan st,
      Model_C14.sync_all H_dec hash h0 chunk owner_r' owner_f' fixed plan st = sync_all fixed plan st.
    Proof.
      induction plan as [|[s nf] plan IH]; intros st; cbn [Model_C14.sync_all]; [reflexivity|].
      unfold Model_C14.sync_node. rewrite sync_records_ext. destruct (sync_records _ _ _) as [st1 []].
      - destruct (nf_crash nf); rewrite ?sync_shards_ext; [|destruct (sync_shards _ _ _ _)]; rewrite IH; reflexivity.
      - rewrite IH. reflexivity.
    Qed.
  End Ext.

  Hypothesis chunk_pos : (1 <= chunk)%nat.

  Notation clean_f := (clean file owner_f).
  Notation clean_r := (clean rec_ owner_r).
  Definition inv (st0 st : state A) : Prop := inv_on file owner_f st0 st /\ inv_on rec_ owner_r st0 st.
  Definition mstep st st' : Prop := vstep file owner_f st st' /\ vstep rec_ owner_r st st'.
  Definition msteps st st' : Prop := vsteps file owner_f st st' /\ vsteps rec_ owner_r st st'.

  Lemma inv_refl st0 : inv st0 st0.
  Proof. split; apply inv_on_refl. Qed.
  Lemma msteps_refl st : msteps st st.
  Proof. split; apply rt_refl. Qed.
  Lemma msteps_trans st1 st2 st3 : msteps st1 st2 -> msteps st2 st3 -> msteps st1 st3.
  Proof. intros [F1 R1] [F2 R2]. split; eapply rt_trans; eassumption. Qed.
  Lemma msteps_step st st' : mstep st st' -> msteps st st'.
  Proof. intros [F R]. split; apply rt_step; assumption. Qed.
  Lemma inv_msteps st0 st st' : good st0 -> msteps st st' -> inv st0 st -> inv st0 st'.
  Proof. intros (Ha & Hb & _) [F R] [If Ir]. split; eapply inv_on_vsteps; eassumption. Qed.

  Lemma file_vstep_set src p st c f :
    src <> owner_f p -> file st src p = Some f -> vstep file owner_f st (set_file st (owner_f p) p c).
  Proof.
    intros Hs Hf q. destruct (path_dec q p) as [->|Hq]; [right; exists src, f|left; intros n; fsimp].
    repeat split; auto; [intros n H1 H2|left]; fsimp.
  Qed.

  Lemma file_vstep_move src p st f :
    src <> owner_f p -> file st src p = Some f ->
    vstep file owner_f st (del_file (set_file st (owner_f p) p f) src p).
  Proof.
    intros Hs Hf q. destruct (path_dec q p) as [->|Hq]; [right; exists src, f|left; intros n; fsimp].
    repeat split; auto; [intros n H1 H2|right; split]; fsimp.
  Qed.

  Lemma send_file_step fixed fa src p st :
    src <> owner_f p ->
    (forall f, file st src p = Some f -> f <> [] /\ (fixed = true \/ forall g, hash g = hash f -> g = f)) ->
    mstep st (fst (send_file fixed fa src (owner_f p) p st)).
  Proof.
    intros Hs Hsrc.
    destruct (file st src p) as [f|] eqn:Ef;
      [|rewrite send_file_absent by assumption; split; apply vstep_same; reflexivity].
    destruct (Hsrc f eq_refl) as [Hne Hh].
    destruct (send_file_cases H_dec hash h0 chunk chunk_pos fixed fa src (owner_f p) p st f Ef)
      as [E|[(c & E)|(c & E & Hc & Hfx)]]; rewrite E; cbn [fst]; (split; [|apply vstep_same; intros; fsimp]).
    - apply vstep_same. reflexivity.
    - eapply file_vstep_set; eassumption.
    - replace c with f; [apply file_vstep_move; assumption|]. destruct Hh; symmetry; auto.
  Qed.

  Lemma send_group_step rf src d st : src <> d -> mstep st (fst (send_group rf src d st)).
  Proof.
    intros Hs. split; [apply vstep_same; intros; apply file_send_group|]. intros k.
    generalize (fun n => rec_send_group rf src d st n k).
    destruct (node_dec (owner_r k) d) as [Ek|Ek]; [destruct (rec_ st src k) as [v|] eqn:Ev|]; intros E;
      try (left; intros n; rewrite E; destruct rf; reflexivity).
    right. exists src, v. rewrite !E. split; [congruence|]. split; [exact Ev|]. split.
    - intros n H1 H2. rewrite E. destruct rf; fsimp.
    - destruct rf; fsimp; auto.
  Qed.

  Lemma send_group_ff src d st k : owner_r k = d -> rec_ (fst (send_group RNone src d st)) src k = None.
  Proof.
    intros Ek. rewrite rec_send_group. destruct (node_dec (owner_r k) d); [|contradiction].
    destruct (rec_ st src k); [destruct (node_dec src src); congruence|reflexivity].
  Qed.

  Lemma file_none_msteps st st' s p : msteps st st' -> owner_f p <> s -> file st s p = None -> file st' s p = None.
  Proof. intros [M _]. exact (none_vsteps file owner_f st st' s p M). Qed.
  Lemma rec_none_msteps st st' s k : msteps st st' -> owner_r k <> s -> rec_ st s k = None -> rec_ st' s k = None.
  Proof. intros [_ M]. exact (none_vsteps rec_ owner_r st st' s k M). Qed.
  Lemma clean_f_msteps st st' s : msteps st st' -> clean_f st s -> clean_f st' s.
  Proof. intros [M _]. exact (clean_vsteps file owner_f st st' s M). Qed.
  Lemma clean_r_msteps st st' s : msteps st st' -> clean_r st s -> clean_r st' s.
  Proof. intros [_ M]. exact (clean_vsteps rec_ owner_r st st' s M). Qed.

  Lemma converged_of_clean st0 st :
    inv st0 st -> (forall n, clean_f st n /\ clean_r st n) -> converged owner_r owner_f st0 st.
  Proof.
    intros [If Ir] C.
    destruct (settled file owner_f st0 st If) as [F1 F2]; [intros n; apply C|].
    destruct (settled rec_ owner_r st0 st Ir) as [R1 R2]; [intros n; apply C|].
    exact (conj F1 (conj F2 (conj R1 R2))).
  Qed.

  Lemma step_mstep fixed st0 st st' :
    good st0 -> fixed = true \/ collision_free st0 -> inv st0 st -> step fixed st st' -> mstep st st'.
  Proof.
    intros (_ & _ & Hne) Hcf [(F1 & _) _] S.
    destruct S as [st src p fa Hs|st src d rf Hs]; [|apply send_group_step; exact Hs].
    apply send_file_step; [exact Hs|]. intros f Hf. destruct (F1 _ _ _ Hs Hf) as [n0 H0].
    split; [eapply Hne; eauto|]. destruct Hcf as [Hx|Hcf]; [left; exact Hx|right; eapply Hcf; eauto].
  Qed.

  Lemma reach_inv fixed st0 st :
    good st0 -> fixed = true \/ collision_free st0 -> reach fixed st0 st -> inv st0 st.
  Proof.
    intros G Hcf R. induction R as [|st st' S R IH]; [apply inv_refl|].
    eapply inv_msteps; [exact G|apply msteps_step; eapply step_mstep; eassumption|exact IH].
  Qed.

  Lemma no_loss_of_inv st0 st : inv st0 st -> no_loss st0 st.
  Proof. intros [If Ir]. split; intros n0 x v; [apply (kept file owner_f)|apply (kept rec_ owner_r)]; assumption. Qed.

  (* the unrepaired receiver appends, so there a fault-free transfer needs an absent destination file *)
  Definition ready (fixed : bool) st : Prop := fixed = true \/ once_files st.
  Definition valid fixed st0 st : Prop := inv st0 st /\ ready fixed st.
  Definition ffrun fixed st st' : Prop := msteps st st' /\ (ready fixed st -> ready fixed st').

  Lemma ffrun_refl fixed st : ffrun fixed st st.
  Proof. split; [apply msteps_refl|auto]. Qed.
  Lemma ffrun_trans fixed st1 st2 st3 : ffrun fixed st1 st2 -> ffrun fixed st2 st3 -> ffrun fixed st1 st3.
  Proof. intros [M1 R1] [M2 R2]. split; [eapply msteps_trans; eassumption|auto]. Qed.
  Lemma valid_ffrun fixed st0 st st' : good st0 -> valid fixed st0 st -> ffrun fixed st st' -> valid fixed st0 st'.
  Proof. intros G [I Rd] [M R]. split; [eapply inv_msteps; eassumption|auto]. Qed.
  Lemma ffrun_same_files fixed st st' : msteps st st' -> (forall n p, file st' n p = file st n p) -> ffrun fixed st st'.
  Proof.
    intros M E. split; [exact M|]. intros [R|On]; [left; exact R|right].
    intros n1 n2 p. rewrite !E. apply On.
  Qed.

  Lemma once_move st s d p f :
    file st s p = Some f -> once_files st -> once_files (del_file (set_file st d p f) s p).
  Proof.
    intros Hf On.
    assert (Char : forall n q, file (del_file (set_file st d p f) s p) n q <> None ->
                   if path_dec q p then n = d else file st n q <> None).
    { intros n q. fsimp. intros Hn. assert (n = s) by (apply (On n s p); congruence). congruence. }
    intros n1 n2 q H1 H2. apply Char in H1, H2. destruct (path_dec q p); [congruence|eapply On; eauto].
  Qed.

  Lemma move_ff fixed st0 st s p f :
    good st0 -> valid fixed st0 st -> s <> owner_f p -> file st s p = Some f ->
    send_file fixed None s (owner_f p) p st = (del_file (set_file st (owner_f p) p f) s p, true) /\
    ffrun fixed st (del_file (set_file st (owner_f p) p f) s p).
  Proof.
    intros (_ & _ & Gne) [[(F1 & _) _] Rd] Hs Ef. destruct (F1 _ _ _ Hs Ef) as [n0 H0]. split; [|split].
    - apply send_file_ff; eauto. destruct Rd as [R|On]; [left; exact R|right].
      destruct (file st (owner_f p) p) eqn:E; [|reflexivity]. destruct Hs. apply (On s (owner_f p) p); congruence.
    - apply msteps_step. split; [apply file_vstep_move; assumption|apply vstep_same; intros; fsimp].
    - intros [R|On]; [left; exact R|right; apply once_move; assumption].
  Qed.

  Lemma shards_loop_ff fixed ff s st0 :
    good st0 -> (forall p, ff p = None) ->
    forall ps st, NoDup ps -> (forall p, In p ps -> owner_f p <> s /\ file st s p <> None) ->
      valid fixed st0 st ->
      exists st', shards_loop fixed ff s ps [] st = (st', []) /\ ffrun fixed st st' /\
                  (forall p, In p ps -> file st' s p = None).
  Proof.
    intros G Hff. induction ps as [|p ps IH]; intros st Hnd Hps V.
    - exists st. split; [reflexivity|]. split; [apply ffrun_refl|intros p []].
    - inversion_clear Hnd as [|? ? Hnin Hnd'].
      destruct (Hps p (or_introl eq_refl)) as [Hop Hfp]. destruct (file st s p) as [f|] eqn:Ef; [|congruence].
      destruct (move_ff fixed st0 st s p f G V) as [E1 R1]; [congruence|exact Ef|].
      cbn [Model_C14.shards_loop]. destruct (in_dec node_dec (owner_f p) []) as [[]|_]. rewrite Hff, E1.
      destruct (IH (del_file (set_file st (owner_f p) p f) s p) Hnd') as (st' & E & R & Hnone).
      + intros q Hq. destruct (Hps q (or_intror Hq)). split; [assumption|]. fsimp.
      + eapply valid_ffrun; eassumption.
      + exists st'. split; [exact E|]. split; [eapply ffrun_trans; eassumption|].
        intros q [<-|Hq]; [|auto]. eapply file_none_msteps; [apply R|congruence|fsimp].
  Qed.

  Lemma sync_shards_ff fixed ff s st0 st :
    good st0 -> (forall p, ff p = None) -> valid fixed st0 st ->
    exists st', sync_shards fixed ff s st = (st', true) /\ ffrun fixed st st' /\ clean_f st' s.
  Proof.
    intros G Hff V. unfold Model_C14.sync_shards.
    destruct (shards_loop_ff fixed ff s st0 G Hff (to_move owner_f s st) st) as (st' & E & R & Hn); auto.
    - apply NoDup_filter, NoDup_nodup.
    - intros p. apply to_move_spec.
    - rewrite E. exists st'. split; [reflexivity|]. split; [exact R|].
      intros p Hp. destruct (file st s p) eqn:Ef.
      + apply Hn, to_move_spec. split; congruence.
      + eapply file_none_msteps; [apply R|exact Hp|exact Ef].
  Qed.

  Lemma send_group_ffrun fixed rf src d st : src <> d -> ffrun fixed st (fst (send_group rf src d st)).
  Proof. intros Hs. apply ffrun_same_files; [apply msteps_step, send_group_step, Hs|intros; apply file_send_group]. Qed.

  Lemma groups_loop_ff fixed rf s : (forall d, rf d = RNone) -> forall ds st, (forall d, In d ds -> d <> s) ->
    exists st', groups_loop rf s ds st true = (st', true) /\ ffrun fixed st st' /\
                (forall k, In (owner_r k) ds -> rec_ st' s k = None).
  Proof.
    intros Hrf. induction ds as [|d ds IH]; intros st Hds.
    - exists st. split; [reflexivity|]. split; [apply ffrun_refl|intros k []].
    - assert (Hd : s <> d) by (intros E; apply (Hds d); [left; reflexivity|congruence]).
      cbn [Model_C14.groups_loop]. rewrite Hrf, (surjective_pairing (send_group RNone s d st)), send_group_ok.
      destruct (IH (fst (send_group RNone s d st))) as (st' & E & R & Hk); [auto using in_cons|].
      exists st'. split; [exact E|]. split; [eapply ffrun_trans; [apply send_group_ffrun, Hd|exact R]|].
      intros k [Ek|Hin]; [|auto]. eapply rec_none_msteps; [apply R|congruence|apply send_group_ff; congruence].
  Qed.

  Lemma sync_records_ff fixed rf s st : (forall d, rf d = RNone) ->
    exists st', sync_records rf s st = (st', true) /\ ffrun fixed st st' /\ clean_r st' s.
  Proof.
    intros Hrf. unfold Model_C14.sync_records.
    destruct (groups_loop_ff fixed rf s Hrf (rec_dests owner_r s st) st) as (st' & E & R & Hk).
    - intros d Hd. apply rec_dests_spec in Hd. tauto.
    - exists st'. split; [exact E|]. split; [exact R|].
      intros k Hk'. destruct (rec_ st s k) eqn:Er.
      + apply Hk, rec_dests_spec. split; [exact Hk'|]. exists k. split; congruence.
      + eapply rec_none_msteps; [apply R|exact Hk'|exact Er].
  Qed.

  Definition phase_done (ph : phase) st : Prop :=
    match ph with PRec s _ => clean_r st s | PShard s _ => clean_f st s end.

  Lemma phase_done_msteps ph st st' : msteps st st' -> phase_done ph st -> phase_done ph st'.
  Proof. destruct ph; [apply clean_r_msteps|apply clean_f_msteps]. Qed.

  Lemma run_phase_ff fixed st0 ph st :
    good st0 -> phase_ff ph -> valid fixed st0 st ->
    ffrun fixed st (run_phase fixed ph st) /\ phase_done ph (run_phase fixed ph st).
  Proof.
    intros G Hph V. destruct ph as [s rf|s ff]; cbn [Model_C14.run_phase phase_done phase_ff] in *.
    - destruct (sync_records_ff fixed rf s st Hph) as (st1 & E & R). rewrite E. exact R.
    - destruct (sync_shards_ff fixed ff s st0 st G Hph V) as (st1 & E & R). rewrite E. exact R.
  Qed.

  Lemma run_phases_ff fixed st0 : good st0 -> forall sched st,
    Forall phase_ff sched -> valid fixed st0 st ->
    ffrun fixed st (run_phases fixed sched st) /\
    forall ph, In ph sched -> phase_done ph (run_phases fixed sched st).
  Proof.
    intros G. induction sched as [|ph sched IH]; intros st Hff V.
    - split; [apply ffrun_refl|intros ph []].
    - inversion_clear Hff as [|? ? Hph Hff'].
      change (run_phases fixed (ph :: sched) st) with (run_phases fixed sched (run_phase fixed ph st)).
      destruct (run_phase_ff fixed st0 ph st G Hph V) as [R1 D1].
      destruct (IH (run_phase fixed ph st) Hff') as [R2 D2]; [eapply valid_ffrun; eassumption|].
      split; [eapply ffrun_trans; eassumption|].
      intros x [<-|Hx]; [eapply phase_done_msteps; [apply R2|exact D1]|auto].
  Qed.

  Theorem phases_converge fixed st0 st sched :
    good st0 -> inv st0 st -> ready fixed st -> Forall phase_ff sched -> covers_phases sched st ->
    converged owner_r owner_f st0 (run_phases fixed sched st).
  Proof.
    intros G I Rd Hff Cov. destruct (run_phases_ff fixed st0 G sched st Hff (conj I Rd)) as [[M _] D].
    apply converged_of_clean; [eapply inv_msteps; eassumption|].
    intros n. destruct (Cov n) as [HR HF]. split.
    - destruct HF as [(ff & Hin)|Hf]; [exact (D _ Hin)|]. eapply clean_f_msteps; [exact M|]. intros p _. apply Hf.
    - destruct HR as [(rf & Hin)|Hr]; [exact (D _ Hin)|]. eapply clean_r_msteps; [exact M|]. intros k _. apply Hr.
  Qed.

  (* a fault-free Sync of a node is the schedule of its two phases *)
  Definition node_phases (s : node) : list phase := [PRec s (fun _ => RNone); PShard s (fun _ => None)].

  Lemma order_phases_ff order : Forall phase_ff (flat_map node_phases order).
  Proof. induction order; cbn; repeat constructor; assumption. Qed.

  Lemma covers_order_phases order st : covers order st -> covers_phases (flat_map node_phases order) st.
  Proof.
    intros C n. destruct (in_dec node_dec n order) as [Hin|Hnin]; [|destruct (C n Hnin); auto].
    split; left; eexists; apply in_flat_map; exists n; cbn; auto.
  Qed.

  Lemma sync_node_ff fixed st0 s st : good st0 -> valid fixed st0 st ->
    sync_node fixed no_fault s st = (run_phases fixed (node_phases s) st, true).
  Proof.
    intros G V. unfold Model_C14.sync_node.
    cbn [node_phases Model_C14.run_phases fold_left Model_C14.run_phase no_fault nf_rec nf_file nf_crash].
    destruct (sync_records_ff fixed (fun _ => RNone) s st) as (st1 & E1 & R1 & _); [reflexivity|].
    destruct (sync_shards_ff fixed (fun _ => None) s st0 st1 G) as (st2 & E2 & _);
      [reflexivity|eapply valid_ffrun; eassumption|].
    rewrite E1. cbn [fst]. rewrite E2. reflexivity.
  Qed.

  Lemma sync_all_ff fixed st0 : good st0 -> forall order st, valid fixed st0 st ->
    sync_all fixed (fault_free order) st =
    (run_phases fixed (flat_map node_phases order) st, map (fun _ => true) order).
  Proof.
    intros G. induction order as [|s order IH]; intros st V; [reflexivity|].
    destruct (run_phases_ff fixed st0 G (node_phases s) st (order_phases_ff [s]) V) as [R _].
    cbn [fault_free map Model_C14.sync_all flat_map]. rewrite (sync_node_ff fixed st0) by assumption.
    fold (fault_free order). rewrite IH by (eapply valid_ffrun; eassumption).
    unfold Model_C14.run_phases. rewrite fold_left_app. reflexivity.
  Qed.

  Theorem sync_converge fixed st0 st order :
    good st0 -> inv st0 st -> ready fixed st -> covers order st ->
    converged owner_r owner_f st0 (fst (sync_all fixed (fault_free order) st)) /\
    snd (sync_all fixed (fault_free order) st) = map (fun _ => true) order.
  Proof.
    intros G I Rd Cov. rewrite (sync_all_ff fixed st0 G order st (conj I Rd)). split; [|reflexivity].
    apply phases_converge; auto using order_phases_ff, covers_order_phases.
  Qed.
End Sync.

(* a routing function computed once for the keys of a table *)
Definition memo {K : Type} (K_dec : forall a b : K, {a = b} + {a <> b}) (f : K -> node) (tbl : list (K * node))
           (k : K) : node :=
  match al_get K_dec k tbl with Some n => n | None => f k end.

Lemma memo_ok {K : Type} (K_dec : forall a b : K, {a = b} + {a <> b}) f tbl :
  map f (map fst tbl) = map snd tbl -> forall k, memo K_dec f tbl k = f k.
Proof.
  intros Ht k. unfold memo. induction tbl as [|[k1 n1] tbl IH]; cbn in *; [reflexivity|].
  injection Ht as E1 Ht. destruct (K_dec k k1) as [->|_]; auto.
Qed.

Definition unit_dec (a b : unit) : {a = b} + {a <> b} := match a, b with tt, tt => left eq_refl end.

Lemma ex_file_cases n p f : file ex_st0 n p = Some f ->
  (n = ex_n1 /\ p = ex_p1 /\ f = ex_f1) \/ (n = ex_n1 /\ p = ex_p2 /\ f = ex_f2) \/ (n = ex_n2 /\ p = ex_p3 /\ f = ex_f3).
Proof.
  unfold file, ex_st0, mk_state. cbn [al_get].
  destruct (node_dec n ex_n1) as [->|_]; [|destruct (node_dec n ex_n2) as [->|_]]; cbn [files al_get];
    repeat (destruct (path_dec p _) as [->|_]); intros [= <-]; auto 6.
Qed.

Lemma ex_rec_cases n k v : rec_ ex_st0 n k = Some v ->
  (n = ex_n1 /\ k = str "u1/c1"%string /\ v = [1; 1]%N) \/ (n = ex_n1 /\ k = str "u2/c1"%string /\ v = [2; 2]%N) \/
  (n = ex_n2 /\ k = str "u5/c9"%string /\ v = [3]%N).
Proof.
  unfold rec_, ex_st0, mk_state. cbn [al_get].
  destruct (node_dec n ex_n1) as [->|_]; [|destruct (node_dec n ex_n2) as [->|_]]; cbn [recs al_get];
    repeat (destruct (key_dec k _) as [->|_]); intros [= <-]; auto 6.
Qed.

Lemma ex_good : good ex_st0 /\ once_files ex_st0 /\ collision_free id_hash ex_st0 /\
                covers [ex_n3; ex_n1; ex_n2] ex_st0.
Proof.
  assert (On : once_files ex_st0).
  { intros n1 n2 p H1 H2.
    destruct (file ex_st0 n1 p) eqn:E1, (file ex_st0 n2 p) eqn:E2; try congruence.
    apply ex_file_cases in E1, E2.
    destruct E1 as [(-> & -> & _)|[(-> & -> & _)|(-> & -> & _)]], E2 as [(-> & E & _)|[(-> & E & _)|(-> & E & _)]];
      try reflexivity; vm_compute in E; discriminate. }
  split; [split; [|split]|split; [|split]].
  - apply once_agree, On.
  - intros n1 n2 k v1 v2 H1 H2. apply ex_rec_cases in H1, H2.
    destruct H1 as [(_ & -> & ->)|[(_ & -> & ->)|(_ & -> & ->)]], H2 as [(_ & E & ->)|[(_ & E & ->)|(_ & E & ->)]];
      try reflexivity; vm_compute in E; discriminate.
  - intros n p f Hf. apply ex_file_cases in Hf.
    destruct Hf as [(_ & _ & ->)|[(_ & _ & ->)|(_ & _ & ->)]]; discriminate.
  - exact On.
  - intros n p f _ g [= ->]. reflexivity.
  - intros n Hn. split; [intros p; destruct (file ex_st0 n p) eqn:E|intros k; destruct (rec_ ex_st0 n k) eqn:E];
      try reflexivity; [apply ex_file_cases in E|apply ex_rec_cases in E];
      destruct Hn; cbn [In]; destruct E as [(-> & _)|[(-> & _)|(-> & _)]]; auto.
Qed.

(* a constant checksum and the receiver that always appends lose a file *)
Definition hash_c (l : list N) : unit := tt.
Definition ex_c1 : state N := fst (send_file unit_dec hash_c tt 1 false (Some 1%nat) ex_a ex_b ex_p1 ex_stc).
Definition ex_c2 : state N := fst (send_file unit_dec hash_c tt 1 false None ex_a ex_b ex_p1 ex_c1).

Lemma ex_collision :
  good ex_stc /\ file ex_stc ex_a ex_p1 = Some [1; 2]%N /\
  reach unit_dec hash_c tt 1 (fun _ => ex_b) (fun _ => ex_b) false ex_stc ex_c2 /\
  file ex_c1 ex_b ex_p1 = Some [1]%N /\
  file ex_c2 ex_b ex_p1 = Some [1; 1; 2]%N /\ (forall n, file ex_c2 n ex_p1 <> Some [1; 2]%N).
Proof.
  assert (Hab : ex_a <> ex_b) by (intros E; vm_compute in E; discriminate).
  assert (Cases : forall n p f, file ex_stc n p = Some f -> n = ex_a /\ p = ex_p1 /\ f = [1; 2]%N).
  { intros n p f. unfold file, ex_stc, mk_state. cbn [al_get].
    destruct (node_dec n ex_a) as [->|]; [|discriminate]. cbn [files al_get].
    destruct (path_dec p ex_p1) as [->|]; [|discriminate]. intros [= <-]. auto. }
  split; [split; [|split]|split; [|split; [|split; [|split]]]]; try (vm_compute; reflexivity).
  - intros n1 n2 p f1 f2 H1 H2. apply Cases in H1, H2. destruct H1 as (_ & _ & ->), H2 as (_ & _ & ->). reflexivity.
  - intros n1 n2 k v1 v2 H1. unfold rec_, ex_stc, mk_state in H1. cbn [al_get] in H1.
    destruct (node_dec n1 ex_a); discriminate.
  - intros n p f Hf. apply Cases in Hf. destruct Hf as (_ & _ & ->). discriminate.
  - eapply reach_step; [exact (step_file _ _ _ _ _ (fun _ => ex_b) _ _ ex_a ex_p1 (Some 1%nat) Hab)|].
    eapply reach_step; [exact (step_file _ _ _ _ _ (fun _ => ex_b) _ _ ex_a ex_p1 None Hab)|apply rtn1_refl].
  - intros n. destruct (node_dec n ex_a) as [->|Na]; [vm_compute; discriminate|].
    destruct (node_dec n ex_b) as [->|Nb]; [vm_compute; discriminate|].
    unfold ex_c2, ex_c1. rewrite !send_file_other by auto.
    intros Hx. apply Cases in Hx. destruct Hx as (Hx & _). contradiction.
Qed.
