(* Props_C16.v -- property C16: tenants are isolated from each other.
   The statements, each with a short derivation from the lemmas of Proofs_C16.v.

   Vocabulary (Model_C16.v): user and collection ids are byte strings;
   [rec_key u c] = u ++ "/" ++ c is the node-database key, [user_prefix u] =
   u ++ "/" the prefix RPCCreateCollection counts and RPCListCollections scans;
   [user_dir], [collection_dir], [shard_dir] are filepath.Join(root,
   "userCollections", u, c, s) with the semantics of Clean for '/', ".", "..";
   [step root u o st] is one request of user u (pinned tree: no check of the user
   id), [http_step] the same behind the X-User-Id check of fix 6ba5263;
   [view_of root u st] is everything u can observe: its records (hence the
   listing, every get-collection answer, the quota count) and every shard
   directory with its content below userCollections/u.
   [no_slash u]: byte 47 does not occur.  [plain u]: no_slash, not empty, not
   "." and not "..".  [wf st]: every node-database entry sits under the key of
   its own fields and was written for plain ids (preserved by every request of a
   plain user: c16_wf_preserved).  [op_ok]: shard ids are plain (server-generated
   uuids). *)
From Coq Require Import List NArith Bool Arith Sorted.
From Semadb Require Import Bytes KV Model_C16 Proofs_C16.
Import ListNotations.
Open Scope N_scope.

(* keys: for delimiter-free user ids, equal keys mean equal user and collection
       (whatever the collection id is, also with '/' inside as a %2F path segment
       can carry), and the prefix scan of u meets exactly the keys of u --- also
       when one id is a prefix of the other or of a user+collection concatenation *)
Theorem c16_keys_disjoint : forall u u' c c', no_slash u -> no_slash u' ->
  (rec_key u c = rec_key u' c' -> u = u' /\ c = c') /\
  (is_prefix (user_prefix u) (rec_key u' c') = true <-> u = u').
Proof.
  intros u u' c c' Hu Hu'. split; [now apply rec_key_inj|].
  rewrite prefix_eqb by assumption. rewrite bytes_eqb_eq. split; congruence.
Qed.
Print Assumptions c16_keys_disjoint.

(* the scan of the model is the bbolt cursor loop (KV.bbolt_prefix) and the memstore filter *)
Theorem c16_scan_is_bbolt : forall (d : db) p, ksorted (map fst d) ->
  map fst (scan d p) = bbolt_prefix (map fst d) p /\ map fst (scan d p) = mem_prefix (map fst d) p.
Proof.
  intros d p Hs. unfold scan, mem_prefix. rewrite bbolt_prefix_spec by exact Hs.
  rewrite (map_fst_filter (is_prefix p)). auto.
Qed.
Print Assumptions c16_scan_is_bbolt.

(* hence: listing / counting for u sees exactly the records whose UserId is u *)
Theorem c16_scan_exact : forall (d : db) u, no_slash u ->
  Forall (fun kv => fst kv = rec_key (r_user (snd kv)) (r_col (snd kv)) /\ no_slash (r_user (snd kv))) d ->
  scan d (user_prefix u) = filter (fun kv => bytes_eqb (r_user (snd kv)) u) d.
Proof.
  intros d u Hu H. apply filter_ext_in. intros [k r] Hin.
  rewrite Forall_forall in H. destruct (H _ Hin) as [-> Hr]. now apply prefix_eqb.
Qed.
Print Assumptions c16_scan_exact.

(* with '/' allowed in a user id the statement is false: after user "a/b" created
       "ccc", user "a" lists it, can fetch it as "b/ccc", and it fills the quota of "a" *)
Theorem c16_slash_user_refuted :
  exists root a b c, a <> b /\ plain b /\ ~ no_slash a /\ valid_col 2 c = true /\ wf w_empty /\
    let st := run root a [OCreate 2 c 3] w_empty in
    snd (step root b OList w_empty) = AList [] /\
    snd (step root b OList st) = AList [c] /\
    snd (step root b (OGet 2 ([98] ++ [slash] ++ c)) st) = ACol c [] /\
    user_count (st_db st) b = 1 /\
    snd (step root b (OCreate 2 w_xyz 1) w_empty) = ACreated /\
    snd (step root b (OCreate 2 w_xyz 1) st) = AQuota /\
    view_of root b st <> view_of root b w_empty.
Proof.
  exists w_root, w_a_b, w_a, w_ccc.
  split; [discriminate|]. split; [plain_by_compute|].
  split; [intros H; apply H; vm_compute; auto|].
  split; [reflexivity|]. split; [exact wf_empty|].
  cbv zeta. repeat split; try (vm_compute; reflexivity). vm_compute. discriminate.
Qed.
Print Assumptions c16_slash_user_refuted.

(* directories: for plain ids the collection directory of (u, c) and everything below
       it lies outside the tree of another user u'; deleting the shards of (u, c) leaves
       the directories of u' as they are *)
Theorem c16_paths_disjoint : forall root u u' c, plain u -> plain u' -> plain c -> u <> u' ->
  (forall d, d = collection_dir root u c \/ strictly_below (collection_dir root u c) d = true ->
             d <> user_dir root u' /\ strictly_below (user_dir root u') d = false) /\
  (forall s, plain s -> strictly_below (user_dir root u') (shard_dir root u c s) = false) /\
  (forall f : fs, filter (below_b (user_dir root u')) (delete_collection_shards f root u c)
                  = filter (below_b (user_dir root u')) f).
Proof.
  intros root u u' c Hu Hu' Hc Hn. split; [|split].
  - intros d. now apply paths_disjoint.
  - intros s Hs. rewrite shard_below by assumption. now apply bytes_eqb_false.
  - intros f. now apply delete_shards_other.
Qed.
Print Assumptions c16_paths_disjoint.

Theorem c16_paths_shape : forall root u c s, plain u -> plain c -> plain s ->
  user_dir root u = base root ++ [ucols; u] /\
  collection_dir root u c = base root ++ [ucols; u; c] /\
  shard_dir root u c s = base root ++ [ucols; u; c; s].
Proof. auto using user_dir_plain, collection_dir_plain, shard_dir_plain. Qed.
Print Assumptions c16_paths_shape.

(* the pinned defect F9 (fixed by 6ba5263).  For EVERY root and id b: the collection b of
       user "." is the directory of user b, so deleting it removes every shard of b *)
Theorem c16_dot_user_aliases : forall root b (f : fs),
  collection_dir root dot b = user_dir root b /\
  filter (below_b (user_dir root b)) (delete_collection_shards f root dot b) = [].
Proof.
  intros root b f. split; [apply dot_alias|].
  unfold delete_collection_shards. rewrite dot_alias. now apply filter_implied.
Qed.
Print Assumptions c16_dot_user_aliases.

(* the non-interference statement without the hypothesis "a is not '.'" is false *)
Theorem c16_dot_user_refuted :
  exists root a b ops st, no_slash a /\ a <> [] /\ plain b /\ a <> b /\ wf st /\ Forall op_ok ops /\
    v_dirs (view_of root b st) = [([[114]; ucols; w_bob; w_col; w_s1], 7)] /\
    v_dirs (view_of root b (run root a ops st)) = [] /\
    snd (step root b (OReadShard 2 w_col w_s1) st) = AContent (Some 7) /\
    snd (step root b (OReadShard 2 w_col w_s1) (run root a ops st)) = AContent None /\
    view_of root b (run root a ops st) <> view_of root b st.
Proof.
  exists w_root, dot, w_bob, w_dot_ops, w_bob_state.
  split; [now apply no_slash_b|].
  split; [discriminate|]. split; [plain_by_compute|]. split; [discriminate|].
  split; [exact wf_bob_state|]. split; [ops_ok|].
  repeat split; try (vm_compute; reflexivity). vm_compute. discriminate.
Qed.
Print Assumptions c16_dot_user_refuted.

(* user "..": its collection "userCollections" (a valid v1 collection id) is the directory
   that holds every user; deleting it removes every shard of every user *)
Theorem c16_dotdot_user_wipes_all : forall root b (f : fs), plain b ->
  filter (below_b (user_dir root b)) (delete_collection_shards f root dotdot ucols) = [].
Proof. exact dotdot_wipes. Qed.
Print Assumptions c16_dotdot_user_wipes_all.

Theorem c16_dotdot_user_refuted :
  exists root a b b' ops st, no_slash a /\ a <> [] /\ plain b /\ plain b' /\ a <> b /\ a <> b' /\ wf st /\
    Forall op_ok ops /\ valid_col 1 ucols = true /\
    v_dirs (view_of root b st) = [([[114]; ucols; w_bob; w_col; w_s1], 7)] /\
    v_dirs (view_of root b' st) = [([[114]; ucols; w_eve; w_xyz; w_s2], 5)] /\
    v_dirs (view_of root b (run root a ops st)) = [] /\
    v_dirs (view_of root b' (run root a ops st)) = [] /\
    st_fs (run root a ops st) = [].
Proof.
  exists w_root, dotdot, w_bob, w_eve, w_dotdot_ops, w_two_state.
  split; [now apply no_slash_b|].
  split; [discriminate|]. split; [plain_by_compute|]. split; [plain_by_compute|].
  split; [discriminate|]. split; [discriminate|].
  split; [exact wf_two_state|]. split; [ops_ok|].
  repeat split; vm_compute; reflexivity.
Qed.
Print Assumptions c16_dotdot_user_refuted.

(* what the two id checks of the HTTP layer guarantee *)
Theorem c16_id_checks :
  (forall u, user_ok_b u = true -> plain u) /\
  (forall v c, valid_col v c = true -> plain c) /\
  (forall b, plain_b b = true <-> plain b).
Proof. exact (conj user_ok_plain (conj valid_col_plain plain_b_spec)). Qed.
Print Assumptions c16_id_checks.

Theorem c16_wf_preserved : forall root a os, plain a -> forall st, wf st -> Forall op_ok os ->
  wf (run root a os st).
Proof. exact run_wf. Qed.
Print Assumptions c16_wf_preserved.

(* non-interference: for EVERY history of requests of user a (create / list / get /
       delete collection with any collection ids, shard creation, point writes and reads,
       shard deletion) from any well-formed state, everything user b can observe is unchanged *)
Theorem c16_noninterference : forall root a b os, plain a -> plain b -> a <> b ->
  forall st, wf st -> Forall op_ok os ->
  view_of root b (run root a os st) = view_of root b st /\
  (forall c, get_collection (st_db (run root a os st)) b c = get_collection (st_db st) b c) /\
  list_collections (st_db (run root a os st)) b = list_collections (st_db st) b /\
  user_count (st_db (run root a os st)) b = user_count (st_db st) b.
Proof.
  intros root a b os Ha Hb Hn st Hwf Hok.
  pose proof (run_other root a b os Ha Hb Hn st Hwf Hok) as Hv. split; [exact Hv|].
  apply scan_reads. now apply view_eq_iff in Hv.
Qed.
Print Assumptions c16_noninterference.

(* one request, and the current tree: whatever byte string the acting requests carry as X-User-Id *)
Theorem c16_step_noninterference : forall root a b o st, plain a -> plain b -> a <> b -> wf st -> op_ok o ->
  view_of root b (fst (step root a o st)) = view_of root b st.
Proof. exact step_other. Qed.
Print Assumptions c16_step_noninterference.

Theorem c16_http_noninterference : forall root a b os, user_ok_b b = true -> a <> b ->
  forall st, wf st -> Forall op_ok os ->
  view_of root b (http_run root a os st) = view_of root b st.
Proof.
  intros root a b os Hb Hn st Hwf Hok. rewrite http_run_eq.
  destruct (user_ok_b a) eqn:Ha; [|reflexivity]. apply run_other; auto using user_ok_plain.
Qed.
Print Assumptions c16_http_noninterference.

(* the answers to b's own requests, and b's view afterwards, depend on the state only
       through b's view *)
Theorem c16_own_requests_depend_on_view : forall root b o st1 st2,
  plain b -> wf st1 -> wf st2 -> op_ok o ->
  view_of root b st1 = view_of root b st2 ->
  snd (step root b o st1) = snd (step root b o st2) /\
  view_of root b (fst (step root b o st1)) = view_of root b (fst (step root b o st2)).
Proof. intros root b o st1 st2 Hb _. now apply step_own. Qed.
Print Assumptions c16_own_requests_depend_on_view.

(* any interleaving of the requests of any number of (plain) users: the answers user b
       gets, and b's final view, are those of the history with everybody else's requests erased *)
Theorem c16_interleaving : forall root b h st, plain b -> wf st ->
  Forall (fun e : bytes * op => plain (fst e) /\ op_ok (snd e)) h ->
  of_user b (snd (run_all root h st)) = snd (run_all root (of_user b h) st) /\
  view_of root b (fst (run_all root h st)) = view_of root b (fst (run_all root (of_user b h) st)).
Proof. intros root b h st Hb Hwf Hh. now apply interleaving_gen. Qed.
Print Assumptions c16_interleaving.

(* non-vacuity: concrete instances computed by the kernel *)
(* ids that are prefixes of one another: "a" / "ab"; user+collection concatenations:
   ("ab","c") against ("a","bc"): the keys "ab/c" and "a/bc" differ, the scan prefix "a/"
   does not match "ab/c" and the scan prefix "ab/" does not match "a/bc" *)
Example c16_ex_prefix_ids :
  is_prefix (user_prefix [97]) (rec_key [97;98] [99]) = false /\
  is_prefix (user_prefix [97;98]) (rec_key [97] [98;99]) = false /\
  is_prefix (user_prefix [97]) (rec_key [97] [98;99]) = true /\
  rec_key [97;98] [99] <> rec_key [97] [98;99] /\
  no_slash [97] /\ no_slash [97;98].
Proof.
  repeat split; try discriminate; now apply no_slash_b.
Qed.
(* the same byte strings with the delimiter inside the id: "a/b" + "c" and "a" + "b/c" collide *)
Example c16_ex_slash_collision : rec_key [97;47;98] [99] = rec_key [97] [98;47;99].
Proof. reflexivity. Qed.
(* paths: "/r" + users "a", "ab" *)
Example c16_ex_paths :
  shard_dir w_root [97] w_col w_s1 = [[114]; ucols; [97]; w_col; w_s1] /\
  collection_dir w_root dot w_bob = [[114]; ucols; w_bob] /\
  collection_dir w_root dotdot ucols = [[114]; ucols] /\
  collection_dir w_root w_a_b w_col = [[114]; ucols; [97]; [98]; w_col] /\
  join_clean [[47;116;109;112;47;47;120;47]; [46;46;47;121]; []; [46]] = [[116;109;112]; [121]].
Proof. vm_compute. repeat split; reflexivity. Qed.
(* two tenants with the same collection name; "a" and "ab" (prefix of each other): after
   "a" filled its quota, created shards, wrote, deleted -- "ab" sees what it saw before *)
Definition ex_ab_state : state :=
  run w_root [97;98] [OCreate 2 w_col 2; OCreateShard 2 w_col w_s1; OWriteShard 2 w_col w_s1 7] w_empty.
Definition ex_a_ops : list op :=
  [OCreate 2 w_col 2; OCreate 2 w_xyz 2; OCreate 2 w_ccc 2; OCreateShard 2 w_col w_s1;
   OWriteShard 2 w_col w_s1 9; OList; ODelete 2 w_col; ODelete 2 [46;46;47;97;98]].
Example c16_ex_noninterference :
  plain [97] /\ plain [97;98] /\ wf ex_ab_state /\ Forall op_ok ex_a_ops /\
  view_of w_root [97;98] (run w_root [97] ex_a_ops ex_ab_state) = view_of w_root [97;98] ex_ab_state /\
  v_dirs (view_of w_root [97;98] ex_ab_state) = [([[114]; ucols; [97;98]; w_col; w_s1], 7)] /\
  v_count (view_of w_root [97;98] ex_ab_state) = 1 /\
  snd (step w_root [97] (OCreate 2 w_ccc 2) (run w_root [97] [OCreate 2 w_col 2; OCreate 2 w_xyz 2] ex_ab_state)) = AQuota /\
  snd (step w_root [97;98] (OCreate 2 w_ccc 2) (run w_root [97] [OCreate 2 w_col 2; OCreate 2 w_xyz 2] ex_ab_state)) = ACreated.
Proof.
  split; [plain_by_compute|]. split; [plain_by_compute|].
  split; [apply run_wf; [plain_by_compute|exact wf_empty|ops_ok]|].
  split; [ops_ok|].
  repeat split; vm_compute; reflexivity.
Qed.
