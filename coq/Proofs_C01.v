(* Proofs_C01.v -- lemmas for property C01: facts about the plain-map reference spec S (Model_C01.v);
   the bucket-level mechanism model M (Model_C01M.v) refines S, the allocator / two-way index invariant
   being inductive; soundness of the boolean checker that judges dumped buckets. *)
From Coq Require Import List PeanoNat NArith Bool Lia.
From Semadb Require Import ListFacts Bytes U64 Value Obs KeyLayout Model_C19 Proofs_C19 Model_C01 Model_C01M.
Import ListNotations.
Open Scope N_scope.

Lemma bytes_dec (a b : bytes) : {a = b} + {a <> b}.
Proof. destruct (bytes_eqb_spec a b); [now left|now right]. Qed.

Lemma has_dup_false l : has_dup l = false <-> NoDup l.
Proof.
  induction l as [|x r IH]; cbn; [split; [constructor|reflexivity]|].
  now rewrite orb_false_iff, existsb_bytes_notIn, IH, NoDup_cons_iff.
Qed.

Lemma dedup_In x l : In x (dedup l) <-> In x l.
Proof. exact (dedup_by_In (mem := fun x r => existsb (bytes_eqb x) r) existsb_bytes_In x l). Qed.
Lemma dedup_NoDup l : NoDup (dedup l).
Proof. exact (dedup_by_NoDup (mem := fun x r => existsb (bytes_eqb x) r) existsb_bytes_In l). Qed.


(* The store of S (st_get / st_remove / st_set), the buckets of M (b_get / b_del / b_put) and documents
   (doc_get / doc_remove / doc_set) are one and the same structure at three value types: each of those
   functions is convertible with aget / adel / aput over bytes_eqb at that type. *)
Lemma st_get_remove id id' s : st_get id (st_remove id' s) = if bytes_eqb id id' then None else st_get id s.
Proof. exact (aget_adel bytes_eqb_spec id id' s). Qed.
Lemma st_get_set id id' d s : st_get id (st_set id' d s) = if bytes_eqb id id' then Some d else st_get id s.
Proof. exact (aget_aput bytes_eqb_spec id id' d s). Qed.
Lemma st_get_keys u s : st_get u s <> None <-> In u (map fst s).
Proof. exact (aget_keys bytes_eqb_spec u s). Qed.
Lemma st_mem_get id s : st_mem id s = true <-> st_get id s <> None.
Proof. unfold st_mem. destruct (st_get id s); split; congruence. Qed.
Lemma st_set_mem u d s : st_get u s <> None ->
  forall id, st_get id (st_set u d s) <> None <-> st_get id s <> None.
Proof. intros Hu id. rewrite st_get_set. destruct (bytes_eqb_spec id u) as [->|]; [|tauto]. split; congruence. Qed.
Lemma st_remove_keys id x s : In x (map fst (st_remove id s)) -> In x (map fst s) /\ x <> id.
Proof.
  intros H. apply in_map_iff in H as (kv & <- & H). apply (adel_In bytes_eqb_spec) in H as [H Hne].
  split; [now apply in_map|exact Hne].
Qed.
Lemma st_remove_absent u s : st_get u s = None -> st_remove u s = s.
Proof. exact (adel_absent u s). Qed.
Lemma st_remove_length u s : NoDup (map fst s) -> st_get u s <> None -> S (length (st_remove u s)) = length s.
Proof. exact (adel_length bytes_eqb_spec u s). Qed.
Lemma st_set_NoDup u d s : NoDup (map fst s) -> NoDup (map fst (st_set u d s)).
Proof. exact (aput_NoDup bytes_eqb_spec u d s). Qed.
Lemma st_remove_NoDup u s : NoDup (map fst s) -> NoDup (map fst (st_remove u s)).
Proof. exact (adel_NoDup u s). Qed.

Lemma fold_set_get ps : forall s id, NoDup (map fst ps) ->
  st_get id (fold_left (fun acc p => st_set (fst p) (snd p) acc) ps s) =
  match st_get id ps with Some d => Some d | None => st_get id s end.
Proof.
  induction ps as [|[u d] r IH]; intros s id Hnd; [reflexivity|].
  cbn [map fst] in Hnd. apply NoDup_cons_iff in Hnd as [Hu Hr].
  cbn [fold_left fst snd st_get]. rewrite IH, st_get_set by assumption.
  destruct (bytes_eqb_spec id u) as [->|]; [|reflexivity].
  now assert (st_get u r = None) as -> by now apply (aget_notin bytes_eqb_spec).
Qed.

Lemma fold_set_nodup ps : forall s,
  NoDup (map fst s) -> NoDup (map fst (fold_left (fun acc p => st_set (fst p) (snd p) acc) ps s)).
Proof. apply (fold_left_inv (fun s => NoDup (map fst s))). intros a p _. apply st_set_NoDup. Qed.
Lemma fold_remove_nodup l : forall s,
  NoDup (map fst s) -> NoDup (map fst (fold_left (fun acc i => st_remove i acc) l s)).
Proof. apply (fold_left_inv (fun s => NoDup (map fst s))). intros a i _. apply st_remove_NoDup. Qed.
Lemma update_go_inv (P : store -> Prop) sc maxsize ps :
  (forall u inc old s, st_get u s = Some old -> P s -> P (st_set u (merge_doc delete_value old inc) s)) ->
  forall s s' ids es, P s -> update_go sc maxsize ps s = (s', ids, es) -> P s'.
Proof.
  intros Hstep. induction ps as [|[u inc] r IH]; intros s s' ids es Hs H; cbn [update_go] in H.
  - now injection H as <- _ _.
  - destruct (st_get u s) as [old|] eqn:Eu; [|now apply (IH s _ ids es)].
    destruct (update_go sc maxsize r _) as [[s1 ids1] es1] eqn:E1. injection H as <- _ _.
    exact (IH _ _ _ _ (Hstep u inc old s Eu Hs) E1).
Qed.
Lemma update_go_nodup sc maxsize ps : forall s s' ids es,
  NoDup (map fst s) -> update_go sc maxsize ps s = (s', ids, es) -> NoDup (map fst s').
Proof. apply (update_go_inv (fun s => NoDup (map fst s))). intros u inc old s _. apply st_set_NoDup. Qed.

Definition insert_bad (sc : schema) (ps : list (uuid * doc)) (s : store) : Prop :=
  ~ NoDup (map fst ps) \/ (exists p, In p ps /\ st_get (fst p) s <> None) \/
  (exists p, In p ps /\ well_typed sc (snd p) = false).

Lemma insert_bad_iff sc ps s : insert_bad sc ps s <->
  has_dup (map fst ps) = true \/ existsb (fun p => st_mem (fst p) s) ps = true \/
  forallb (fun p => well_typed sc (snd p)) ps = false.
Proof.
  unfold insert_bad. rewrite <- has_dup_false, not_false_iff_true, existsb_exists, forallb_false_iff.
  split; (intros [H|[(p & Hp & H)|H]]; [now left| |now right; right]); right; left; exists p.
  all: split; [exact Hp|now apply st_mem_get].
Qed.

Lemma spec_insert_rejects sc ps s :
  (insert_bad sc ps s -> exists es, es <> [] /\ insert_spec sc ps s = (s, SErr es)) /\
  (~ insert_bad sc ps s ->
     snd (insert_spec sc ps s) = SOk [] /\
     forall id, st_get id (fst (insert_spec sc ps s)) =
                match st_get id ps with Some d => Some d | None => st_get id s end).
Proof.
  rewrite insert_bad_iff. unfold insert_spec.
  destruct (has_dup (map fst ps)) eqn:Ed; [|destruct (existsb _ ps), (forallb _ ps)]; cbn [app].
  4: { split; [intros [H|[H|H]]; discriminate|intros _]. split; [reflexivity|].
       intros id. now apply fold_set_get, has_dup_false. }
  all: split; [intros _; eexists; split; [|reflexivity]; discriminate|intros []; auto].
Qed.

(* no id appears or disappears during an update, so the ids reported are those present at the start *)
Lemma update_go_ids sc maxsize ps : forall s s' ids es,
  update_go sc maxsize ps s = (s', ids, es) -> ids = filter (fun id => st_mem id s) (map fst ps).
Proof.
  induction ps as [|[u inc] r IH]; intros s s' ids es H; cbn [update_go map fst filter] in *.
  - now injection H as _ <- _.
  - unfold st_mem at 1. destruct (st_get u s) as [old|] eqn:Eu; [|now apply IH in H].
    destruct (update_go sc maxsize r _) as [[s1 ids1] es1] eqn:E1. injection H as _ <- _.
    f_equal. rewrite (IH _ _ _ _ E1). apply filter_ext. intros id. unfold st_mem. rewrite st_get_set.
    destruct (bytes_eqb_spec id u) as [->|]; [now rewrite Eu|reflexivity].
Qed.

Lemma update_go_reports sc maxsize ps : forall s s' ids es,
  update_go sc maxsize ps s = (s', ids, es) ->
  (forall id, In id ids <-> (In id (map fst ps) /\ st_get id s <> None)) /\
  (forall id, st_get id s' <> None <-> st_get id s <> None).
Proof.
  intros s s' ids es H. split.
  - intros id. now rewrite (update_go_ids _ _ _ _ _ _ _ H), filter_In, st_mem_get.
  - revert H. apply (update_go_inv (fun s1 => forall id, st_get id s1 <> None <-> st_get id s <> None)); [|reflexivity].
    intros u inc old s1 Eu Hs id. rewrite st_set_mem; [apply Hs|congruence].
Qed.

Lemma fold_remove_get l : forall s id,
  st_get id (fold_left (fun acc i => st_remove i acc) l s) =
  if existsb (bytes_eqb id) l then None else st_get id s.
Proof.
  induction l as [|x r IH]; intros s id; [reflexivity|].
  cbn [fold_left existsb]. rewrite IH, st_get_remove.
  now destruct (bytes_eqb id x), (existsb (bytes_eqb id) r).
Qed.

Lemma spec_delete_reports ids s s' known :
  delete_spec ids s = (s', SOk known) ->
  NoDup known /\
  (forall id, In id known <-> (In id ids /\ st_get id s <> None)) /\
  (forall id, In id ids -> st_get id s' = None) /\
  (forall id, ~ In id ids -> st_get id s' = st_get id s).
Proof.
  unfold delete_spec. intros [= <- <-].
  assert (Hk : forall id, In id (filter (fun id0 => st_mem id0 s) (dedup ids)) <-> (In id ids /\ st_get id s <> None)).
  { intros id. now rewrite filter_In, dedup_In, st_mem_get. }
  split; [apply NoDup_filter, dedup_NoDup|]. split; [exact Hk|].
  split; intros id Hid; rewrite fold_remove_get; destruct (existsb (bytes_eqb id) _) eqn:E; try reflexivity.
  - apply existsb_bytes_notIn in E. rewrite Hk in E. destruct (st_get id s); [|reflexivity].
    destruct E. now split.
  - apply existsb_bytes_In, Hk in E. tauto.
Qed.

Lemma update_go_kinds sc maxsize ps : forall s s' ids es,
  update_go sc maxsize ps s = (s', ids, es) -> forall e, In e es -> e = ERR_SIZE \/ e = ERR_TYPE.
Proof.
  induction ps as [|[id inc] r IH]; intros s s' ids es H e He; cbn [update_go] in H.
  - now injection H as <- <- <-.
  - destruct (st_get id s) as [old|]; [|now apply (IH _ _ _ _ H)].
    destruct (update_go sc maxsize r _) as [[s1 ids1] es1] eqn:E. injection H as <- <- <-.
    rewrite !in_app_iff in He. destruct He as [[He|He]|He]; [| |now apply (IH _ _ _ _ E)].
    + destruct (maxsize <? _); [|destruct He]. destruct He as [<-|[]]. now left.
    + destruct (well_typed sc _); [destruct He|]. destruct He as [<-|[]]. now right.
Qed.

Lemma spec_rejected sc maxsize b s es :
  snd (apply_spec sc maxsize b s) = SErr es ->
  fst (apply_spec sc maxsize b s) = s /\ es <> [] /\
  forall e, In e es -> In e [ERR_DUP; ERR_EXISTS; ERR_SIZE; ERR_TYPE].
Proof.
  destruct b as [ps|ps|ids]; cbn [apply_spec].
  - unfold insert_spec. destruct (has_dup _); [|destruct (existsb _ ps), (forallb _ ps)]; cbn; intros [= <-];
      (split; [reflexivity|split; [discriminate|cbn; tauto]]).
  - unfold update_spec. destruct (update_go sc maxsize ps s) as [[s1 ids1] [|e1 es1]] eqn:E; [discriminate|].
    cbn. intros [= <-]. split; [reflexivity|]. split; [discriminate|].
    intros e He. destruct (update_go_kinds _ _ _ _ _ _ _ E e He) as [->| ->]; cbn; auto.
  - discriminate.
Qed.

(* the shallow merge, key by key (incoming keys unique, as in a decoded msgpack map) *)
Definition merge_entry (dv : bytes) (v : value) : option value :=
  match v with VStr s => if bytes_eqb s dv then None else Some v | _ => Some v end.

Lemma merge_one_get dv old i v k :
  doc_get k (merge_doc dv old [(i, v)]) = if bytes_eqb k i then merge_entry dv v else doc_get k old.
Proof.
  unfold merge_doc, merge_entry. cbn [fold_left fst snd]. destruct v; try apply doc_get_set.
  destruct (bytes_eqb s dv); [apply doc_get_remove|apply doc_get_set].
Qed.
Lemma merge_doc_get dv inc : forall old k, NoDup (map fst inc) ->
  doc_get k (merge_doc dv old inc) =
  match doc_get k inc with Some v => merge_entry dv v | None => doc_get k old end.
Proof.
  induction inc as [|[i v] r IH]; intros old k Hnd; [reflexivity|].
  cbn [map fst] in Hnd. apply NoDup_cons_iff in Hnd as [Hi Hr].
  change (merge_doc dv old ((i, v) :: r)) with (merge_doc dv (merge_doc dv old [(i, v)]) r).
  rewrite IH, merge_one_get by assumption. cbn [doc_get].
  destruct (bytes_eqb_spec k i) as [->|]; [|reflexivity].
  now assert (doc_get i r = None) as -> by now apply (aget_notin bytes_eqb_spec).
Qed.

Lemma ill_typed sc path i d v :
  In (path, i) sc -> prop_value path d = QFound v -> type_ok i v = false -> well_typed sc d = false.
Proof.
  intros Hin Hpv Ht. destruct (well_typed sc d) eqn:E; [|reflexivity].
  unfold well_typed in E. rewrite forallb_forall in E. apply E in Hin. cbn [fst snd] in Hin.
  rewrite Hpv in Hin. congruence.
Qed.

Lemma b_get_del k k' b : b_get k (b_del k' b) = if bytes_eqb k k' then None else b_get k b.
Proof. exact (aget_adel bytes_eqb_spec k k' b). Qed.
Lemma b_get_put k k' v b : b_get k (b_put k' v b) = if bytes_eqb k k' then Some v else b_get k b.
Proof. exact (aget_aput bytes_eqb_spec k k' v b). Qed.
Lemma b_get_put_eq k v b : b_get k (b_put k v b) = Some v.
Proof. now rewrite b_get_put, bytes_eqb_refl. Qed.
Lemma b_get_put_neq k k' v b : k <> k' -> b_get k (b_put k' v b) = b_get k b.
Proof. intros H. now rewrite b_get_put, bytes_eqb_neq. Qed.
Lemma b_get_del_eq k b : b_get k (b_del k b) = None.
Proof. now rewrite b_get_del, bytes_eqb_refl. Qed.
Lemma b_get_del_neq k k' b : k <> k' -> b_get k (b_del k' b) = b_get k b.
Proof. intros H. now rewrite b_get_del, bytes_eqb_neq. Qed.

Lemma node_key_eqb n n' s : n < two64 -> n' < two64 -> bytes_eqb (node_key n s) (node_key n' s) = (n =? n').
Proof.
  intros H H'. destruct (N.eqb_spec n n') as [->|Hne]; [apply bytes_eqb_refl|].
  apply bytes_eqb_neq. intros E. now apply node_key_inj in E.
Qed.
Lemma node_key_suffix_eqb n n' s s' :
  n < two64 -> n' < two64 -> s <> s' -> bytes_eqb (node_key n s) (node_key n' s') = false.
Proof. intros H H' Hs. apply bytes_eqb_neq. intros E. now apply node_key_inj in E. Qed.
Lemma node_point_eqb n s u s' : bytes_eqb (node_key n s) (point_key u s') = false.
Proof. apply bytes_eqb_neq, node_point_keys_disjoint. Qed.
Lemma point_node_eqb u s' n s : bytes_eqb (point_key u s') (node_key n s) = false.
Proof. apply bytes_eqb_neq. intros E. now apply (node_point_keys_disjoint n s u s'). Qed.
Lemma point_key_eqb u u' s : bytes_eqb (point_key u s) (point_key u' s) = bytes_eqb u u'.
Proof.
  destruct (bytes_eqb_spec u u') as [->|Hne]; [apply bytes_eqb_refl|].
  apply bytes_eqb_neq. intros [= E]. now apply app_inj_tail in E.
Qed.

Lemma point_uuid_k_node u : point_uuid_from_key (k_node u) = Some u.
Proof.
  unfold point_uuid_from_key, k_node, point_key.
  rewrite N.eqb_refl, last_last, N.eqb_refl, removelast_last. now destruct u.
Qed.
Lemma point_uuid_some k u : point_uuid_from_key k = Some u -> k = k_node u.
Proof.
  unfold point_uuid_from_key. destruct k as [|p rest]; [discriminate|].
  destruct (N.eqb_spec p point_prefix) as [->|]; [|discriminate].
  destruct rest as [|x rest]; [discriminate|]. cbn [length Nat.eqb negb andb].
  destruct (N.eqb_spec (last (x :: rest) 256) suffix_id) as [E|]; [|discriminate].
  intros [= <-]. unfold k_node, point_key. rewrite <- E. f_equal. now apply app_removelast_last.
Qed.
Lemma point_uuid_node_key n s : point_uuid_from_key (node_key n s) = None.
Proof. reflexivity. Qed.

(* SetPoint and DeletePoint as one operation: bind the pair (nid, u) to a document or to nothing *)
Definition write_point (b : bucket) (nid : N) (u : uuid) (o : option doc) : bucket :=
  match o with Some d => set_point b nid u d | None => delete_point b u nid end.

Lemma write_point_get b nid u o k :
  b_get k (write_point b nid u o) =
  if bytes_eqb k (k_data nid) then option_map VData o
  else if bytes_eqb k (k_node u) then option_map (fun _ => VNode nid) o
  else if bytes_eqb k (k_uuid nid) then option_map (fun _ => VUuid u) o
  else b_get k b.
Proof.
  destruct o; unfold write_point, set_point, delete_point; [now rewrite !b_get_put|rewrite !b_get_del].
  now destruct (bytes_eqb k (k_data nid)), (bytes_eqb k (k_node u)), (bytes_eqb k (k_uuid nid)).
Qed.
Lemma write_point_NoDup b nid u o : NoDup (map fst b) -> NoDup (map fst (write_point b nid u o)).
Proof.
  intros H. destruct o; unfold write_point, set_point, delete_point;
    repeat (apply (aput_NoDup bytes_eqb_spec) || apply adel_NoDup); exact H.
Qed.

Lemma write_point_node b nid u o u' :
  b_get (k_node u') (write_point b nid u o) =
  if bytes_eqb u' u then option_map (fun _ => VNode nid) o else b_get (k_node u') b.
Proof. rewrite write_point_get. unfold k_node, k_uuid, k_data. now rewrite !point_node_eqb, point_key_eqb. Qed.
Lemma write_point_uuid b nid u o n : n < two64 -> nid < two64 ->
  b_get (k_uuid n) (write_point b nid u o) =
  if n =? nid then option_map (fun _ => VUuid u) o else b_get (k_uuid n) b.
Proof.
  intros H H'. rewrite write_point_get. unfold k_node, k_uuid, k_data.
  now rewrite node_key_suffix_eqb, node_point_eqb, node_key_eqb.
Qed.
Lemma write_point_data b nid u o n : n < two64 -> nid < two64 ->
  b_get (k_data n) (write_point b nid u o) = if n =? nid then option_map VData o else b_get (k_data n) b.
Proof.
  intros H H'. rewrite write_point_get. unfold k_node, k_uuid, k_data.
  now rewrite node_key_eqb, node_point_eqb, node_key_suffix_eqb.
Qed.

Lemma WfP_empty : WfP [].
Proof.
  constructor; cbn; try discriminate; try contradiction; [constructor|reflexivity].
Qed.

(* neither nid nor u is bound to something else: both unbound (an insert), or bound to each other *)
Definition bindable (b : bucket) (nid : N) (u : uuid) : Prop :=
  nid < two64 /\
  (forall v, b_get (k_uuid nid) b = Some v -> v = VUuid u) /\
  (forall v, b_get (k_node u) b = Some v -> v = VNode nid).

Lemma WfP_write_point b nid u o : WfP b -> bindable b nid u -> WfP (write_point b nid u o).
Proof.
  intros W (Hn & C1 & C2). pose proof (write_point_NoDup b nid u o (wf_nodup _ W)) as Nd. constructor.
  - exact Nd.
  - intros u' v. rewrite write_point_node. destruct (bytes_eqb_spec u' u) as [->|Hne].
    + destruct o; [intros [= <-]|discriminate]. exists nid. now rewrite write_point_uuid, N.eqb_refl.
    + intros H. destruct (wf_node _ W _ _ H) as (n & -> & Hn' & Hu). exists n.
      rewrite write_point_uuid by assumption. destruct (N.eqb_spec n nid) as [->|]; [|auto].
      apply C1 in Hu. congruence.
  - intros n v Hn'. rewrite write_point_uuid by assumption. destruct (N.eqb_spec n nid) as [->|Hne].
    + destruct o; [intros [= <-]|discriminate]. exists u. now rewrite write_point_node, bytes_eqb_refl.
    + intros H. destruct (wf_uuid _ W _ _ Hn' H) as (u' & -> & Hu). exists u'.
      rewrite write_point_node. destruct (bytes_eqb_spec u' u) as [->|]; [|auto].
      apply C2 in Hu. congruence.
  - intros n Hn'. rewrite write_point_uuid, write_point_data by assumption.
    destruct (N.eqb_spec n nid); [|now apply (wf_data1 _ W)]. destruct o; [now eexists|now intros []].
  - intros n Hn'. rewrite write_point_uuid, write_point_data by assumption.
    destruct (N.eqb_spec n nid); [now destruct o|now apply (wf_data2 _ W)].
  - intros k v H. apply (In_aget bytes_eqb_spec _ _ _ Nd) in H. rewrite write_point_get in H.
    destruct (bytes_eqb_spec k (k_data nid)) as [->|_]; [right; exists nid; auto|].
    destruct (bytes_eqb_spec k (k_node u)) as [->|_]; [left; now exists u|].
    destruct (bytes_eqb_spec k (k_uuid nid)) as [->|_]; [right; exists nid; auto|].
    apply (aget_In bytes_eqb_spec) in H. now apply (wf_keys _ W k v).
Qed.

Lemma lookup_get_point b u : lookup b u = match get_point u b with Some (_, d) => Some d | None => None end.
Proof. reflexivity. Qed.

Lemma get_point_spec b u : WfP b ->
  match get_point u b with
  | Some (nid, _) => b_get (k_node u) b = Some (VNode nid) /\ b_get (k_uuid nid) b = Some (VUuid u) /\ bindable b nid u
  | None => b_get (k_node u) b = None
  end.
Proof.
  intros W. unfold get_point. destruct (b_get (k_node u) b) as [v|] eqn:E; [|reflexivity].
  destruct (wf_node _ W _ _ E) as (n & -> & Hn & Hu). repeat split; [assumption..| |]; congruence.
Qed.
Lemma m_exists_lookup b u : WfP b -> m_exists u b = match lookup b u with Some _ => true | None => false end.
Proof.
  intros W. pose proof (get_point_spec b u W) as H. unfold m_exists, lookup.
  destruct (get_point u b) as [[nid d]|]; [destruct H as [-> _]|rewrite H]; reflexivity.
Qed.

Lemma lookup_write_point b nid u o u' : WfP b -> bindable b nid u ->
  lookup (write_point b nid u o) u' = if bytes_eqb u' u then o else lookup b u'.
Proof.
  intros W (Hn & C1 & _). unfold lookup, get_point. rewrite write_point_node.
  destruct (bytes_eqb_spec u' u) as [->|Hne].
  - destruct o; cbn [option_map]; [|reflexivity]. now rewrite write_point_data, N.eqb_refl.
  - destruct (b_get (k_node u') b) as [v|] eqn:Ev; [|reflexivity].
    destruct (wf_node _ W _ _ Ev) as (n & -> & Hn' & Hu). rewrite write_point_data by assumption.
    destruct (N.eqb_spec n nid) as [->|]; [|reflexivity]. apply C1 in Hu. congruence.
Qed.

(* abs reads like the bucket and has unique ids: both by induction on a part l of the bucket *)
Lemma abs_gen b l : WfP b -> incl l b -> NoDup (map fst l) ->
  NoDup (map fst (flat_map (abs_entry b) l)) /\
  forall u, st_get u (flat_map (abs_entry b) l) =
            match b_get (k_node u) l with
            | Some (VNode n) => Some (match b_get (k_data n) b with Some (VData d) => d | _ => [] end)
            | _ => None
            end.
Proof.
  intros W. induction l as [|[k v] r IH]; intros Hincl Hnd; [split; [constructor|reflexivity]|].
  apply incl_cons_inv in Hincl as [Hkv Hr]. cbn [map fst] in Hnd. apply NoDup_cons_iff in Hnd as [Hk Hnd].
  destruct (IH Hr Hnd) as [Nd G]. cbn [flat_map b_get]. unfold abs_entry at 1 3. cbn [fst snd].
  destruct (point_uuid_from_key k) as [u'|] eqn:Ek.
  - apply point_uuid_some in Ek as ->. apply (In_aget bytes_eqb_spec _ _ _ (wf_nodup _ W)) in Hkv.
    destruct (wf_node _ W _ _ Hkv) as (n & -> & _). cbn [app map fst st_get]. split.
    + constructor; [|exact Nd]. intros Hin. apply st_get_keys in Hin. rewrite G in Hin.
      now assert (b_get (k_node u') r = None) as E by (now apply (aget_notin bytes_eqb_spec)); rewrite E in Hin.
    + intros u. unfold k_node. rewrite point_key_eqb. destruct (bytes_eqb u u'); [reflexivity|apply G].
  - cbn [app]. split; [exact Nd|]. intros u. destruct (bytes_eqb_spec (k_node u) k) as [<-|]; [|apply G].
    now rewrite point_uuid_k_node in Ek.
Qed.
Lemma abs_get b u : WfP b -> st_get u (abs_bucket b) = lookup b u.
Proof.
  intros W. unfold abs_bucket. rewrite (proj2 (abs_gen b b W (incl_refl b) (wf_nodup _ W))).
  unfold lookup, get_point. now destruct (b_get (k_node u) b) as [[| |]|].
Qed.
Lemma abs_nodup m : WfP (pts m) -> NoDup (map fst (abs m)).
Proof. intros W. apply (abs_gen _ _ W (incl_refl _) (wf_nodup _ W)). Qed.

Lemma memN_In x l : memN x l = true <-> In x l.
Proof. exact (mem_by_In N.eqb_eq x l). Qed.
Lemma memN_notIn x l : memN x l = false <-> ~ In x l.
Proof. rewrite <- memN_In. destruct (memN x l); split; congruence. Qed.
Lemma removeN_filter x l : removeN x l = filter (fun y => negb (x =? y)) l.
Proof. induction l as [|z r IH]; cbn; [reflexivity|]. rewrite IH. now destruct (x =? z). Qed.
Lemma removeN_In x y l : In y (removeN x l) <-> In y l /\ y <> x.
Proof. rewrite removeN_filter, filter_In, negb_true_iff, N.eqb_neq. intuition congruence. Qed.
Lemma removeN_NoDup x l : NoDup l -> NoDup (removeN x l).
Proof. rewrite removeN_filter. apply NoDup_filter. Qed.
Lemma dedupN_NoDup_id l : NoDup l -> dedupN l = l.
Proof.
  induction l as [|x r IH]; cbn; [reflexivity|]. rewrite NoDup_cons_iff. intros [Hx Hr].
  apply memN_notIn in Hx. now rewrite Hx, IH.
Qed.
Lemma dedupN_In x l : In x (dedupN l) <-> In x l.
Proof. exact (dedup_by_In memN_In x l). Qed.
Lemma dedupN_NoDup l : NoDup (dedupN l).
Proof. exact (dedup_by_NoDup memN_In l). Qed.

Lemma next_id_inv c fl nf fl' nf' : next_id c fl nf = Some (fl', nf') ->
  (In c fl /\ fl' = removeN c fl /\ nf' = nf) \/
  (fl = [] /\ fl' = [] /\ c = nf /\ nf' = nf + 1 /\ nf + 1 < two64).
Proof.
  unfold next_id. destruct (memN c fl) eqn:Em.
  - intros [= <- <-]. left. now apply memN_In in Em.
  - destruct fl; [|discriminate]. destruct (N.eqb_spec c nf) as [->|]; [|discriminate].
    destruct (N.ltb_spec (nf + 1) two64); [|discriminate]. intros [= <- <-]. now right.
Qed.

Lemma AInv_init : AInv [] [] first_node_id.
Proof.
  constructor; cbn; try contradiction; [constructor|intros n H; lia|unfold first_node_id, two64; lia].
Qed.

(* AInv says that the free list and the live ids partition [first_node_id, nextFree).  It survives a write
   that changes the status of the one id c only and leaves c on exactly one side; nextFree may move past c. *)
Lemma AInv_move b fl fl' nf nf' c u o :
  AInv b fl nf -> nf <= nf' < two64 -> first_node_id <= c < nf' -> (forall n, nf <= n < nf' -> n = c) ->
  NoDup fl' -> (forall n, n <> c -> In n fl' <-> In n fl) -> (In c fl' <-> o = None) ->
  AInv (write_point b c u o) fl' nf'.
Proof.
  intros A Hnf Hc Hnew Hnd Hfl Hx. pose proof (a_nf _ _ _ A) as Hnf0.
  assert (Hc64 : c < two64) by lia.
  assert (Hb : forall n, n < two64 -> n <> c -> b_get (k_uuid n) (write_point b c u o) = b_get (k_uuid n) b).
  { intros n Hn Hne. rewrite write_point_uuid by assumption. now destruct (N.eqb_spec n c). }
  assert (Hbc : b_get (k_uuid c) (write_point b c u o) = None <-> o = None).
  { rewrite write_point_uuid, N.eqb_refl by assumption. now destruct o. }
  constructor; [exact Hnd| | | |lia].
  - intros n Hn. destruct (N.eq_dec n c) as [->|Hne]; [split; [exact Hc|now apply Hbc, Hx]|].
    apply Hfl, (a_free _ _ _ A) in Hn as [Hr Hf]; [|exact Hne].
    assert (first_node_id <= n < nf' /\ n < two64) as [Hr' Hn] by lia. rewrite Hb by assumption. now split.
  - intros n Hn Hl. destruct (N.eq_dec n c) as [->|Hne]; [exact Hc|].
    rewrite Hb in Hl by assumption. apply (a_live _ _ _ A) in Hl; [lia|exact Hn].
  - intros n Hn. destruct (N.eq_dec n c) as [->|Hne]; [rewrite Hbc, Hx; destruct o; [now right|now left]|].
    assert (first_node_id <= n < nf /\ n < two64) as [Hr Hn64] by (specialize (Hnew n); lia).
    destruct (a_cover _ _ _ A n Hr) as [H|H]; [left; now apply Hfl|right]. now rewrite Hb.
Qed.

Lemma AInv_alloc b fl nf c fl' nf' u d : AInv b fl nf -> next_id c fl nf = Some (fl', nf') ->
  c < two64 /\ b_get (k_uuid c) b = None /\ AInv (set_point b c u d) fl' nf'.
Proof.
  intros A H. pose proof (a_nf _ _ _ A) as Hnf.
  apply next_id_inv in H as [(Hc & -> & ->)|(-> & -> & -> & -> & Hlt)].
  - destruct (a_free _ _ _ A c Hc) as [Hr Hf]. split; [lia|]. split; [exact Hf|].
    apply (AInv_move b fl _ nf nf c u (Some d) A); [lia|exact Hr|intros; lia| | |].
    + apply removeN_NoDup, (a_nodup _ _ _ A).
    + intros n Hne. rewrite removeN_In. tauto.
    + rewrite removeN_In. split; [tauto|discriminate].
  - assert (Hf : b_get (k_uuid nf) b = None).
    { destruct (b_get (k_uuid nf) b) eqn:E; [|reflexivity].
      assert (first_node_id <= nf < nf); [apply (a_live _ _ _ A); [lia|congruence]|lia]. }
    split; [lia|]. split; [exact Hf|].
    apply (AInv_move b [] _ nf (nf + 1) nf u (Some d) A); [lia|lia|intros; lia|constructor|tauto|].
    split; [intros []|discriminate].
Qed.

Lemma AInv_same b fl nf nid u d :
  AInv b fl nf -> nid < two64 -> b_get (k_uuid nid) b <> None -> AInv (set_point b nid u d) fl nf.
Proof.
  intros A Hn Hl. pose proof (a_nf _ _ _ A) as Hnf. pose proof (a_live _ _ _ A _ Hn Hl) as Hr.
  apply (AInv_move b fl _ nf nf nid u (Some d) A); [lia|exact Hr|intros; lia|apply (a_nodup _ _ _ A)|tauto|].
  split; [|discriminate]. intros Hi. now apply (a_free _ _ _ A) in Hi.
Qed.

Lemma AInv_free b fl nf u nid :
  AInv b fl nf -> nid < two64 -> b_get (k_uuid nid) b <> None -> AInv (delete_point b u nid) (fl ++ [nid]) nf.
Proof.
  intros A Hn Hl. pose proof (a_nf _ _ _ A) as Hnf. pose proof (a_live _ _ _ A _ Hn Hl) as Hr.
  assert (Hfl : ~ In nid fl) by (intros Hi; now apply (a_free _ _ _ A) in Hi).
  apply (AInv_move b fl _ nf nf nid u None A); [lia|exact Hr|intros; lia| | |].
  - apply NoDup_app_iff. split; [apply (a_nodup _ _ _ A)|]. split; [repeat constructor; intros []|].
    intros n Hi [<-|[]]. contradiction.
  - intros n Hne. rewrite in_app_iff. cbn. split; [intros [H|[H|[]]]|]; auto. congruence.
  - rewrite in_app_iff. cbn. tauto.
Qed.

Record Rep (b : bucket) (s : store) : Prop := {
  rep_wf : WfP b;
  rep_get : forall u, lookup b u = st_get u s;
  rep_nodup : NoDup (map fst s) }.

Lemma Rep_write b s nid u o : Rep b s -> bindable b nid u ->
  Rep (write_point b nid u o) (match o with Some d => st_set u d s | None => st_remove u s end).
Proof.
  intros [W G Nd] B. constructor.
  - now apply WfP_write_point.
  - intros u'. rewrite lookup_write_point by assumption.
    destruct o; [rewrite st_get_set|rewrite st_get_remove]; now destruct (bytes_eqb u' u).
  - destruct o; [now apply st_set_NoDup|now apply st_remove_NoDup].
Qed.
Lemma Rep_bound b s u nid old : Rep b s -> get_point u b = Some (nid, old) ->
  bindable b nid u /\ b_get (k_uuid nid) b <> None /\ st_get u s = Some old.
Proof.
  intros R Hg. pose proof (get_point_spec b u (rep_wf _ _ R)) as H. rewrite Hg in H. destruct H as (_ & Hl & B).
  split; [exact B|]. split; [congruence|]. rewrite <- (rep_get _ _ R). unfold lookup. now rewrite Hg.
Qed.
Lemma m_exists_st_mem b s u : Rep b s -> m_exists u b = st_mem u s.
Proof. intros R. rewrite m_exists_lookup by apply R. now rewrite (rep_get _ _ R). Qed.

(* what M persists -- bucket, free list, nextFree, pointCount -- against the store s of S *)
Record Sim (b : bucket) (fl : list N) (nf cnt : N) (s : store) : Prop := {
  sim_rep : Rep b s;
  sim_alloc : AInv b fl nf;
  sim_count : cnt = N.of_nat (length s) }.

(* Sim survives the handling of one point by the insert loop, the update loop and the delete loop of M *)
Lemma Sim_insert b fl nf cnt s c fl' nf' u d :
  Sim b fl nf cnt s -> next_id c fl nf = Some (fl', nf') -> st_get u s = None ->
  Sim (set_point b c u d) fl' nf' (cnt + 1) (st_set u d s).
Proof.
  intros [R A ->] En Hu. destruct (AInv_alloc b fl nf c fl' nf' u d A En) as (Hc & Hf & A').
  assert (B : bindable b c u).
  { pose proof (get_point_spec b u (rep_wf _ _ R)) as H. rewrite <- (rep_get _ _ R) in Hu. unfold lookup in Hu.
    destruct (get_point u b) as [[? ?]|]; [discriminate|]. split; [exact Hc|]. rewrite Hf, H. split; discriminate. }
  constructor; [exact (Rep_write b s c u (Some d) R B)|exact A'|].
  cbn [st_set length]. rewrite st_remove_absent by exact Hu. lia.
Qed.
Lemma Sim_update b fl nf cnt s u nid old d :
  Sim b fl nf cnt s -> get_point u b = Some (nid, old) -> Sim (set_point b nid u d) fl nf cnt (st_set u d s).
Proof.
  intros [R A ->] Hg. destruct (Rep_bound b s u nid old R Hg) as (B & Hl & Hs).
  constructor; [exact (Rep_write b s nid u (Some d) R B)|apply AInv_same; [exact A|apply B|exact Hl]|].
  cbn [st_set length]. rewrite st_remove_length; [reflexivity|apply R|congruence].
Qed.
Lemma Sim_delete b fl nf cnt s u nid old :
  Sim b fl nf cnt s -> get_point u b = Some (nid, old) ->
  Sim (delete_point b u nid) (fl ++ [nid]) nf (cnt - 1) (st_remove u s).
Proof.
  intros [R A ->] Hg. destruct (Rep_bound b s u nid old R Hg) as (B & Hl & Hs).
  constructor; [exact (Rep_write b s nid u None R B)|apply AInv_free; [exact A|apply B|exact Hl]|].
  rewrite <- (st_remove_length u s); [lia|apply R|congruence].
Qed.

Lemma insert_go_sim ps : forall cs b fl nf cnt s b' fl' nf',
  Sim b fl nf cnt s -> NoDup (map fst ps) -> (forall p, In p ps -> st_get (fst p) s = None) ->
  m_insert_go ps cs b fl nf = Some (b', fl', nf') ->
  Sim b' fl' nf' (cnt + N.of_nat (length ps)) (fold_left (fun acc p => st_set (fst p) (snd p) acc) ps s).
Proof.
  induction ps as [|[u d] r IH]; intros [|c cs] b fl nf cnt s b' fl' nf' HS Hnd Hfresh H; try discriminate.
  - injection H as <- <- <-. now rewrite N.add_0_r.
  - cbn [m_insert_go] in H. destruct (next_id c fl nf) as [[fl1 nf1]|] eqn:En; [|discriminate].
    cbn [map fst] in Hnd. apply NoDup_cons_iff in Hnd as [Hu Hr].
    replace (cnt + N.of_nat (length ((u, d) :: r))) with (cnt + 1 + N.of_nat (length r)) by (cbn [length]; lia).
    apply (IH cs _ _ _ (cnt + 1) (st_set u d s)) in H; [exact H| |exact Hr|].
    + apply (Sim_insert _ _ _ _ _ _ _ _ _ _ HS En), (Hfresh (u, d)). now left.
    + intros p Hp. rewrite st_get_set. destruct (bytes_eqb_spec (fst p) u) as [E|]; [|apply Hfresh; now right].
      destruct Hu. rewrite <- E. now apply in_map.
Qed.

Lemma update_go_sim sc maxsize ps : forall b fl nf cnt s b' ids es,
  Sim b fl nf cnt s -> m_update_go sc maxsize ps b = (b', ids, es) ->
  exists s', update_go sc maxsize ps s = (s', ids, es) /\ Sim b' fl nf cnt s'.
Proof.
  induction ps as [|[u inc] r IH]; intros b fl nf cnt s b' ids es HS H; cbn [m_update_go update_go] in *.
  - injection H as <- <- <-. now exists s.
  - destruct (get_point u b) as [[nid old]|] eqn:Eg.
    + destruct (Rep_bound b s u nid old (sim_rep _ _ _ _ _ HS) Eg) as (_ & _ & ->).
      destruct (m_update_go sc maxsize r _) as [[b1 ids1] es1] eqn:EM. injection H as <- <- <-.
      apply (IH _ fl nf cnt (st_set u (merge_doc delete_value old inc) s)) in EM as (s' & -> & HS');
        [now exists s'|now apply (Sim_update _ _ _ _ _ _ _ old)].
    + pose proof (rep_get _ _ (sim_rep _ _ _ _ _ HS) u) as Lu. unfold lookup in Lu. rewrite Eg in Lu.
      rewrite <- Lu. now apply (IH b).
Qed.

Lemma delete_go_sim ids : forall b fl nf cnt s b' fl' del,
  Sim b fl nf cnt s -> NoDup ids -> m_delete_go ids b fl = (b', fl', del) ->
  del = filter (fun id => st_mem id s) ids /\
  Sim b' fl' nf (cnt - N.of_nat (length del)) (fold_left (fun acc id => st_remove id acc) del s).
Proof.
  induction ids as [|u r IH]; intros b fl nf cnt s b' fl' del HS Hnd H; cbn [m_delete_go filter] in *.
  - injection H as <- <- <-. now rewrite N.sub_0_r.
  - apply NoDup_cons_iff in Hnd as [Hu Hr]. unfold st_mem at 1.
    destruct (get_point u b) as [[nid old]|] eqn:Eg.
    + destruct (Rep_bound b s u nid old (sim_rep _ _ _ _ _ HS) Eg) as (_ & _ & ->).
      destruct (m_delete_go r _ _) as [[b1 fl1] del1] eqn:EM. injection H as <- <- <-.
      apply (IH _ _ nf (cnt - 1) (st_remove u s)) in EM as [Hd HS'];
        [|now apply (Sim_delete _ _ _ _ _ _ _ old)|exact Hr].
      split.
      * rewrite Hd. f_equal. apply filter_ext_in. intros id Hid. unfold st_mem. rewrite st_get_remove.
        now destruct (bytes_eqb_spec id u) as [->|].
      * replace (cnt - N.of_nat (length (u :: del1))) with (cnt - 1 - N.of_nat (length del1))
          by (cbn [length]; lia).
        exact HS'.
    + pose proof (rep_get _ _ (sim_rep _ _ _ _ _ HS) u) as Lu. unfold lookup in Lu. rewrite Eg in Lu.
      rewrite <- Lu. now apply (IH b fl).
Qed.

Definition SimM (m : mstate) (s : store) : Prop := Sim (pts m) (free m) (nextfree m) (count m) s.

Lemma SimM_init : SimM m_init [].
Proof. split; [split; [apply WfP_empty|reflexivity|constructor]|apply AInv_init|reflexivity]. Qed.

Lemma load_free_id m s : SimM m s -> load_free (free m) = free m.
Proof. intros HS. apply dedupN_NoDup_id, (a_nodup _ _ _ (sim_alloc _ _ _ _ _ HS)). Qed.

Lemma insert_sim sc ps cs m s m' o :
  SimM m s -> m_insert sc ps cs m = Some (m', o) ->
  o = snd (insert_spec sc ps s) /\ SimM m' (fst (insert_spec sc ps s)).
Proof.
  intros HS. unfold m_insert, insert_spec.
  rewrite (existsb_ext _ (fun p => st_mem (fst p) s)) by (intros p; apply m_exists_st_mem, HS).
  destruct (has_dup (map fst ps)) eqn:Ed; [intros [= <- <-]; now split|].
  destruct (existsb _ ps) eqn:Ee; [intros [= <- <-]; now split|].
  destruct (forallb _ ps); cbn [app]; [|intros [= <- <-]; now split].
  rewrite (load_free_id m s HS).
  destruct (m_insert_go ps cs _ _ _) as [[[b' fl'] nf']|] eqn:Eg; intros [= <- <-]. split; [reflexivity|].
  apply (insert_go_sim _ _ _ _ _ _ _ _ _ _ HS) in Eg; [exact Eg|now apply has_dup_false|].
  intros p Hp. apply (existsb_false_In _ _ p) in Ee; [|exact Hp]. cbn in Ee. unfold st_mem in Ee.
  now destruct (st_get (fst p) s).
Qed.

Lemma apply_sim sc maxsize b cs m s m' o :
  SimM m s -> m_apply sc maxsize b cs m = Some (m', o) ->
  o = snd (apply_spec sc maxsize b s) /\ SimM m' (fst (apply_spec sc maxsize b s)).
Proof.
  intros HS. destruct b as [ps|ps|ids]; cbn [m_apply apply_spec].
  - now apply insert_sim.
  - unfold m_update, update_spec. destruct (m_update_go sc maxsize ps (pts m)) as [[b' ids] es] eqn:EM.
    apply (update_go_sim _ _ _ _ _ _ _ _ _ _ _ HS) in EM as (s' & -> & HS').
    destruct es; intros [= <- <-]; now split.
  - unfold m_delete, delete_spec. rewrite (load_free_id m s HS).
    destruct (m_delete_go (dedup ids) (pts m) (free m)) as [[b' fl'] del] eqn:EM. intros [= <- <-].
    apply (delete_go_sim _ _ _ _ _ _ _ _ _ HS (dedup_NoDup ids)) in EM as [<- HS']. now split.
Qed.

Lemma run_sim sc maxsize h : forall css m s m' outs,
  SimM m s -> runM sc maxsize h css m = Some (m', outs) ->
  outs = snd (runS sc maxsize h s) /\ SimM m' (fst (runS sc maxsize h s)).
Proof.
  induction h as [|b r IH]; intros css m s m' outs HS H; cbn [runM runS] in *.
  - injection H as <- <-. now split.
  - destruct (m_apply sc maxsize b (hd [] css) m) as [[m1 o1]|] eqn:E1; [|discriminate].
    destruct (runM sc maxsize r (tl css) m1) as [[m2 os]|] eqn:E2; [|discriminate].
    injection H as <- <-.
    apply (apply_sim _ _ _ _ _ _ _ _ HS) in E1 as [-> HS1].
    destruct (apply_spec sc maxsize b s) as [s1 o1]. cbn [fst snd] in *.
    apply (IH _ _ _ _ _ HS1) in E2 as [-> HS2].
    now destruct (runS sc maxsize r s1).
Qed.

Lemma SimM_same m s : SimM m s -> store_same (abs m) s.
Proof. intros [[W G _] _ _] id. unfold abs. now rewrite abs_get. Qed.

Lemma store_same_equiv a b : store_same a b -> store_equiv a b.
Proof. intros H id. rewrite (H id). now destruct (st_get id b). Qed.
Lemma store_same_length a b : NoDup (map fst a) -> NoDup (map fst b) -> store_same a b -> length a = length b.
Proof.
  intros Ha Hb H. rewrite <- (map_length fst a), <- (map_length fst b).
  apply Nat.le_antisymm; apply NoDup_incl_length; try assumption; intros u Hu; apply st_get_keys;
    [rewrite <- (H u)|rewrite (H u)]; now apply st_get_keys.
Qed.

Lemma SimM_inv m s : SimM m s -> InvM m.
Proof.
  intros HS. pose proof HS as [R A C]. constructor; [apply R|exact A|]. rewrite C. f_equal. symmetry.
  apply store_same_length; [apply abs_nodup, R|apply R|now apply SimM_same].
Qed.

Lemma refines sc maxsize h css m outs :
  runM sc maxsize h css m_init = Some (m, outs) ->
  store_same (abs m) (fst (runS sc maxsize h [])) /\
  store_equiv (abs m) (fst (runS sc maxsize h [])) /\
  outs = snd (runS sc maxsize h []).
Proof.
  intros H. apply (run_sim _ _ _ _ _ _ _ _ SimM_init) in H as [-> HS]. apply SimM_same in HS.
  split; [exact HS|]. split; [now apply store_same_equiv|reflexivity].
Qed.

Lemma reachable_sim sc maxsize m : reachable sc maxsize m -> exists s, SimM m s.
Proof. intros (h & css & outs & H). apply (run_sim _ _ _ _ _ _ _ _ SimM_init) in H as [_ HS]. eexists. exact HS. Qed.

Lemma reads sc maxsize m : reachable sc maxsize m -> forall u, lookup (pts m) u = st_get u (abs m).
Proof. intros H u. apply reachable_sim in H as [s [R _ _]]. symmetry. apply abs_get, R. Qed.

Lemma failed_batch_noop sc maxsize b cs m m' es : m_apply sc maxsize b cs m = Some (m', SErr es) -> m' = m.
Proof.
  intros H. destruct b as [ps|ps|ids]; cbn [m_apply] in H.
  - unfold m_insert in H. destruct (has_dup _); [now injection H|]. destruct (_ ++ _); [|now injection H].
    destruct (m_insert_go _ _ _ _ _) as [[[? ?] ?]|]; discriminate.
  - unfold m_update in H. destruct (m_update_go _ _ _ _) as [[b' ids] [|]]; [discriminate|now injection H].
  - unfold m_delete in H. destruct (m_delete_go _ _ _) as [[? ?] ?]. discriminate.
Qed.

Lemma next_id_ok fl nf : nf + 1 < two64 -> exists c fl' nf', next_id c fl nf = Some (fl', nf') /\ nf' <= nf + 1.
Proof.
  intros H. unfold next_id. destruct fl as [|c fl0].
  - exists nf, [], (nf + 1). cbn [memN]. rewrite N.eqb_refl. destruct (N.ltb_spec (nf + 1) two64); [|lia].
    split; [reflexivity|lia].
  - exists c, (removeN c (c :: fl0)), nf. cbn [memN]. rewrite N.eqb_refl. split; [reflexivity|lia].
Qed.
Lemma insert_go_ok ps : forall b fl nf, nf + N.of_nat (length ps) < two64 ->
  exists cs b' fl' nf', m_insert_go ps cs b fl nf = Some (b', fl', nf') /\ nf' <= nf + N.of_nat (length ps).
Proof.
  induction ps as [|[u d] r IH]; intros b fl nf Hb; cbn [length] in *.
  - exists [], b, fl, nf. split; [reflexivity|lia].
  - destruct (next_id_ok fl nf) as (c & fl1 & nf1 & En & Hle); [lia|].
    destruct (IH (set_point b c u d) fl1 nf1) as (cs & b' & fl' & nf' & E & Hle'); [lia|].
    exists (c :: cs), b', fl', nf'. cbn [m_insert_go]. rewrite En. split; [exact E|lia].
Qed.
Lemma apply_ok sc maxsize b m : nextfree m + batch_points b < two64 ->
  exists cs m' o, m_apply sc maxsize b cs m = Some (m', o) /\ nextfree m' <= nextfree m + batch_points b.
Proof.
  intros Hb. destruct b as [ps|ps|ids]; cbn [m_apply batch_points] in *.
  - destruct (insert_go_ok ps (pts m) (load_free (free m)) (nextfree m) Hb) as (cs & b' & fl' & nf' & E & Hle).
    exists cs. unfold m_insert. rewrite E.
    destruct (has_dup _); [|destruct (_ ++ _)]; eexists _, _; (split; [reflexivity|cbn; lia]).
  - exists []. unfold m_update. destruct (m_update_go _ _ _ _) as [[b' ids] [|]];
      eexists _, _; (split; [reflexivity|cbn; lia]).
  - exists []. unfold m_delete. destruct (m_delete_go _ _ _) as [[b' fl'] del].
    eexists _, _. split; [reflexivity|cbn; lia].
Qed.
Lemma run_exists sc maxsize h : forall m,
  nextfree m + hist_points h < two64 -> exists css m' outs, runM sc maxsize h css m = Some (m', outs).
Proof.
  induction h as [|b r IH]; intros m Hb; cbn [hist_points] in Hb.
  - now exists [], m, [].
  - destruct (apply_ok sc maxsize b m) as (cs & m1 & o1 & E1 & Hn); [lia|].
    destruct (IH m1) as (css & m2 & os & E2); [lia|].
    exists (cs :: css), m2, (o1 :: os). cbn [runM hd tl]. now rewrite E1, E2.
Qed.

Lemma value_eqb_refl v : value_eqb v v = true.
Proof. now apply value_eqb_eq. Qed.
Lemma ovalue_eqb_eq a b : ovalue_eqb a b = true <-> a = b.
Proof.
  destruct a, b; cbn; try (split; congruence).
  rewrite value_eqb_eq. split; congruence.
Qed.
Lemma doc_equivb_spec a b : doc_equivb a b = true <-> doc_equiv a b.
Proof.
  unfold doc_equivb, doc_equiv. rewrite (forallb_keys bytes_eqb_spec ovalue_eqb a b eq_refl).
  split; intros H k; apply ovalue_eqb_eq, H.
Qed.

Lemma doc_eqb_sound a b : doc_eqb a b = true -> doc_equiv a b.
Proof.
  unfold doc_eqb, doc_sub. rewrite !andb_true_iff, !forallb_forall. intros [[_ H1] H2] k.
  destruct (doc_get k a) as [v|] eqn:Ea.
  - apply (aget_In bytes_eqb_spec), H1 in Ea. cbn in Ea.
    destruct (doc_get k b); [|discriminate]. apply value_eqb_eq in Ea. now subst.
  - destruct (doc_get k b) as [v|] eqn:Eb; [|reflexivity].
    apply (aget_In bytes_eqb_spec), H2 in Eb. cbn in Eb. now rewrite Ea in Eb.
Qed.

Lemma odoc_equivb_spec a b :
  odoc_equivb a b = true <->
  match a, b with Some d, Some d' => doc_equiv d d' | None, None => True | _, _ => False end.
Proof.
  destruct a, b; cbn; try (split; [discriminate|contradiction]); [apply doc_equivb_spec|tauto].
Qed.

Lemma nodupN_b_spec l : nodupN_b l = true <-> NoDup l.
Proof. exact (nodup_by_NoDup memN_In l). Qed.
Lemma assocN_In {A} n (v : A) l : assocN n l = Some v -> In (n, v) l.
Proof.
  induction l as [|[i x] r IH]; cbn; [discriminate|].
  destruct (N.eqb_spec n i) as [->|]; [intros [= ->]; now left|auto].
Qed.
Lemma raw_get_In {A} k (v : A) l : raw_get k l = Some v -> In (k, v) l.
Proof.
  induction l as [|[i x] r IH]; cbn; [discriminate|].
  destruct (bytes_eqb_spec k i) as [->|]; [intros [= ->]; now left|auto].
Qed.

Definition rangeN (lo hi : N) : list N := map N.of_nat (seq (N.to_nat lo) (N.to_nat hi - N.to_nat lo)).
Lemma rangeN_In lo hi n : In n (rangeN lo hi) <-> lo <= n < hi.
Proof.
  unfold rangeN. rewrite in_map_iff. split.
  - intros (k & <- & Hk). apply in_seq in Hk. lia.
  - intros H. exists (N.to_nat n). split; [apply N2Nat.id|]. apply in_seq. lia.
Qed.
Lemma rangeN_length lo hi : length (rangeN lo hi) = (N.to_nat hi - N.to_nat lo)%nat.
Proof. unfold rangeN. now rewrite map_length, seq_length. Qed.

Lemma dump_checker_sound d : dump_inv_b d = true -> DumpInv d.
Proof.
  unfold dump_inv_b.
  intros [[[[[[[[[[[[[[_ Hup]%andb_prop Hun]%andb_prop Hud]%andb_prop Hpn]%andb_prop Hnp]%andb_prop
    Hld]%andb_prop Hdl]%andb_prop Hln]%andb_prop Hlr]%andb_prop Hfn]%andb_prop Hfr]%andb_prop
    Hnf2]%andb_prop Hcard]%andb_prop Hcnt]%andb_prop.
  apply negb_true_iff, has_dup_false in Hup. apply nodupN_b_spec in Hun, Hud, Hln, Hfn.
  rewrite forallb_forall in Hpn, Hnp, Hld, Hdl, Hlr, Hfr. apply N.leb_le in Hnf2. apply N.eqb_eq in Hcard, Hcnt.
  assert (Hlive : forall n, In n (dump_live d) -> first_node_id <= n < dump_nextfree d /\ n <> 0 /\ n <> start_id).
  { intros n Hn. apply Hlr in Hn. rewrite !andb_true_iff, !N.ltb_lt, N.leb_le in Hn. lia. }
  assert (Hfree : forall n, In n (dump_free d) -> first_node_id <= n < dump_nextfree d /\ ~ In n (dump_live d)).
  { intros n Hn. apply Hfr in Hn. rewrite !andb_true_iff, negb_true_iff, memN_notIn, N.leb_le, N.ltb_lt in Hn. tauto. }
  constructor; try assumption.
  - intros u n. split; intros H.
    + apply Hpn in H. cbn [fst snd] in H. destruct (assocN n (dump_nodes d)) as [u'|] eqn:E; [|discriminate].
      apply bytes_eqb_eq in H as ->. now apply assocN_In.
    + apply Hnp in H. cbn [fst snd] in H. destruct (raw_get u (dump_pts d)) as [n'|] eqn:E; [|discriminate].
      apply N.eqb_eq in H as ->. now apply raw_get_In.
  - intros n. split; intros H.
    + apply Hld in H. destruct (assocN n (dump_datas d)) eqn:E; [|discriminate].
      apply assocN_In in E. apply (in_map fst _ _ E).
    + apply in_map_iff in H as (nd & <- & Hnd). now apply memN_In, Hdl.
  - (* free and live are disjoint subsets of the range and together have its cardinality *)
    intros n Hn. apply in_app_iff, (NoDup_length_incl (l' := rangeN first_node_id (dump_nextfree d))).
    + apply NoDup_app_iff. repeat split; [assumption..|]. intros x Hx. now apply Hfree.
    + rewrite rangeN_length, app_length. lia.
    + intros x Hx. apply rangeN_In. apply in_app_iff in Hx as [Hx|Hx]; [now apply Hfree|now apply Hlive].
    + now apply rangeN_In.
  - rewrite Hcnt. unfold dump_live. now rewrite map_length.
Qed.

Lemma merge_doc_wf dv inc : forall old, doc_wf old -> doc_wf (merge_doc dv old inc).
Proof.
  unfold merge_doc, doc_wf. induction inc as [|[k v] r IH]; intros old H; [assumption|].
  cbn [fold_left fst snd]. apply IH.
  destruct v; try (now apply (aput_NoDup bytes_eqb_spec)). destruct (bytes_eqb s dv); [now apply adel_NoDup|now apply (aput_NoDup bytes_eqb_spec)].
Qed.

Definition docs_wf (s : store) : Prop := forall u d, st_get u s = Some d -> doc_wf d.

Lemma st_remove_docs_wf id s : docs_wf s -> docs_wf (st_remove id s).
Proof. intros H u d. rewrite st_get_remove. destruct (bytes_eqb u id); [discriminate|apply H]. Qed.
Lemma st_set_docs_wf id d s : doc_wf d -> docs_wf s -> docs_wf (st_set id d s).
Proof. intros Hd H u d'. rewrite st_get_set. destruct (bytes_eqb u id); [now intros [= <-]|apply H]. Qed.
Lemma update_go_docs_wf sc maxsize ps : forall s s' ids es,
  docs_wf s -> update_go sc maxsize ps s = (s', ids, es) -> docs_wf s'.
Proof. apply (update_go_inv docs_wf). intros u inc old s Eu Hs. apply st_set_docs_wf, Hs. now apply merge_doc_wf, (Hs u). Qed.
Lemma apply_spec_docs_wf sc maxsize b s : batch_wf b -> docs_wf s -> docs_wf (fst (apply_spec sc maxsize b s)).
Proof.
  intros Hb Hs. destruct b as [ps|ps|ids]; cbn [apply_spec batch_wf] in *.
  - unfold insert_spec. destruct (has_dup _); [assumption|]. destruct (_ ++ _); [|assumption]. cbn [fst].
    rewrite Forall_forall in Hb. apply (fold_left_inv docs_wf); [|exact Hs]. intros a p Hp. apply st_set_docs_wf, Hb, Hp.
  - unfold update_spec. destruct (update_go sc maxsize ps s) as [[s1 ids1] [|]] eqn:E; [|assumption].
    exact (update_go_docs_wf _ _ _ _ _ _ _ Hs E).
  - unfold delete_spec. cbn [fst]. apply (fold_left_inv docs_wf); [|exact Hs]. intros a u _. apply st_remove_docs_wf.
Qed.
Lemma runS_docs_wf sc maxsize h : forall s, hist_wf h -> docs_wf s -> docs_wf (fst (runS sc maxsize h s)).
Proof.
  induction h as [|b r IH]; intros s Hh Hs; cbn [runS]; [assumption|]. apply Forall_cons_iff in Hh as [Hb Hr].
  apply (apply_spec_docs_wf sc maxsize b s Hb) in Hs. destruct (apply_spec sc maxsize b s) as [s1 o1].
  apply (IH s1 Hr) in Hs. now destruct (runS sc maxsize r s1).
Qed.

Lemma doc_eqb_refl d : doc_wf d -> doc_eqb d d = true.
Proof.
  intros H. unfold doc_eqb. rewrite Nat.eqb_refl.
  assert (doc_sub d d = true) as ->; [|reflexivity].
  apply forallb_forall. intros [k v] Hi. cbn [fst snd].
  assert (doc_get k d = Some v) as -> by now apply (In_aget bytes_eqb_spec). apply value_eqb_refl.
Qed.
Lemma store_sub_same a b : NoDup (map fst a) -> docs_wf b -> store_same a b -> store_sub a b = true.
Proof.
  intros Ha Hw H. apply forallb_forall. intros [u d] Hi. cbn [fst snd].
  assert (E : st_get u b = Some d) by (rewrite <- H; now apply (In_aget bytes_eqb_spec)).
  rewrite E. now apply doc_eqb_refl, (Hw u).
Qed.

Lemma refines_eqb sc maxsize h css m outs :
  hist_wf h -> runM sc maxsize h css m_init = Some (m, outs) ->
  store_eqb (abs m) (fst (runS sc maxsize h [])) = true.
Proof.
  intros Hh H. apply (run_sim _ _ _ _ _ _ _ _ SimM_init) in H as [_ HS].
  assert (Hw : docs_wf (fst (runS sc maxsize h []))) by (apply runS_docs_wf; [exact Hh|intros u d [=]]).
  set (S := fst (runS sc maxsize h [])) in *.
  pose proof (abs_nodup m (rep_wf _ _ (sim_rep _ _ _ _ _ HS))) as Ha.
  pose proof (rep_nodup _ _ (sim_rep _ _ _ _ _ HS)) as Hb. apply SimM_same in HS.
  unfold store_eqb. rewrite (store_same_length _ _ Ha Hb HS), Nat.eqb_refl.
  rewrite (store_sub_same _ _ Ha Hw HS), (store_sub_same S (abs m) Hb); [reflexivity| |now intros id].
  intros u d. rewrite HS. apply Hw.
Qed.
