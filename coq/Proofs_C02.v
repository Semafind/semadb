(* Proofs_C02.v -- lemmas about the inverted-index mechanism Model_C02M.v and
   the reference spec Model_C02.v *)
From Coq Require Import List NArith ZArith Lia Bool Sorted Permutation.
From Semadb Require Import ListFacts Bytes U64 KV KeyLayout Model_C19 Proofs_C19 Value Obs Model_C01 Model_C02 IdSets
  Model_C02M.
Import ListNotations.
Open Scope N_scope.

Lemma same_set_ext r P Q : (forall n, P n <-> Q n) -> same_set r P -> same_set r Q.
Proof. intros H [Hnd Hr]. split; [exact Hnd|]. intros n. now rewrite Hr. Qed.

(* the shape of the search theorems: the call succeeds and its result denotes P *)
Definition returns (o : option idset) (P : N -> Prop) : Prop :=
  exists r, o = Some r /\ same_set r P.

Lemma returns_some r P : same_set r P -> returns (Some r) P.
Proof. intros H. exists r. auto. Qed.

Lemma returns_refute o r (P : N -> Prop) n : o = Some r -> P n -> ~ In n r -> ~ returns o P.
Proof. intros E Hp Hn (r' & E' & _ & Hr). rewrite E in E'. injection E' as <-. now apply Hn, Hr. Qed.

Lemma returns_ext o P Q : (forall n, P n <-> Q n) -> returns o P -> returns o Q.
Proof. intros H (r & E & Hr). exists r. split; [exact E|]. now apply same_set_ext with P. Qed.

Lemma set_mem_In n s : set_mem n s = true <-> In n s.
Proof. exact (mem_by_In N.eqb_eq n s). Qed.

Lemma set_mem_false n s : set_mem n s = false <-> ~ In n s.
Proof. now rewrite <- not_true_iff_false, set_mem_In. Qed.

Lemma set_ins_In n s x : In x (set_ins n s) <-> x = n \/ In x s.
Proof.
  induction s as [|y s IH]; cbn; [split; intros [H|H]; auto; contradiction|].
  destruct (n <? y); cbn; [split; intros [H|H]; auto|].
  rewrite IH. tauto.
Qed.

Lemma set_ins_NoDup n s : NoDup s -> ~ In n s -> NoDup (set_ins n s).
Proof.
  induction s as [|y s IH]; intros Hs Hn; cbn.
  - constructor; [tauto|constructor].
  - destruct (n <? y); [constructor; assumption|].
    apply NoDup_cons_iff in Hs as [Hy Hs]. constructor.
    + rewrite set_ins_In. intros [->|H]; [apply Hn; now left|contradiction].
    + apply IH; [assumption|]. intros H; apply Hn; now right.
Qed.

(* the effect of CheckedAdd / CheckedRemove, abstractly: g n m = new membership of n from the old one *)
Definition fspec (f : idset -> idset * bool) (g : N -> bool -> bool) : Prop :=
  forall s, (forall n, set_mem n (fst (f s)) = g n (set_mem n s)) /\
            (NoDup s -> NoDup (fst (f s))) /\
            (snd (f s) = false -> fst (f s) = s).

Definition gadd (id n : N) (m : bool) : bool := (n =? id) || m.
Definition gdel (id n : N) (m : bool) : bool := negb (n =? id) && m.

Lemma set_add_spec id : fspec (set_add id) (gadd id).
Proof.
  intros s. unfold set_add, gadd. destruct (set_mem id s) eqn:E; cbn [fst snd].
  - split; [|auto]. intros n. destruct (N.eqb_spec n id) as [->|]; cbn; [now rewrite E|reflexivity].
  - split; [|split; [|discriminate]].
    + intros n. apply eq_true_iff_eq.
      rewrite set_mem_In, set_ins_In, orb_true_iff, N.eqb_eq, set_mem_In. tauto.
    + intros Hs. apply set_ins_NoDup; [exact Hs|now apply set_mem_false].
Qed.

Lemma set_remove_spec id : fspec (set_remove id) (gdel id).
Proof.
  intros s. unfold set_remove, gdel. destruct (set_mem id s) eqn:E; cbn [fst snd].
  - split; [|split; [apply NoDup_filter|discriminate]].
    intros n. apply eq_true_iff_eq.
    rewrite set_mem_In, filter_In, andb_true_iff, negb_true_iff, N.eqb_neq, set_mem_In. tauto.
  - split; [|auto]. intros n. destruct (N.eqb_spec n id) as [->|]; cbn; [now rewrite E|reflexivity].
Qed.

Lemma set_union_spec b : forall a,
  (NoDup a -> NoDup (set_union a b)) /\ forall x, In x (set_union a b) <-> In x a \/ In x b.
Proof.
  unfold set_union. induction b as [|y b IH]; intros a; cbn [fold_left]; [cbn; tauto|].
  destruct (IH (fst (set_add y a))) as [IH1 IH2], (set_add_spec y a) as (M & D & _).
  split; [auto|]. intros x.
  rewrite IH2, <- !set_mem_In, M. unfold gadd. rewrite orb_true_iff, N.eqb_eq, !set_mem_In. cbn.
  intuition.
Qed.

Lemma fast_or_concat sets : fast_or sets = set_union [] (concat sets).
Proof.
  unfold fast_or. generalize (@nil N) as acc.
  induction sets as [|s sets IH]; intros acc; cbn [fold_left concat]; [reflexivity|].
  rewrite IH. unfold set_union. now rewrite fold_left_app.
Qed.

Lemma fast_or_In sets x : In x (fast_or sets) <-> exists s, In s sets /\ In x s.
Proof. rewrite fast_or_concat, (proj2 (set_union_spec _ _)), in_concat. cbn. tauto. Qed.
Lemma fast_or_NoDup sets : NoDup (fast_or sets).
Proof. rewrite fast_or_concat. apply set_union_spec. constructor. Qed.

Lemma fast_and_filter s r : fast_and (s :: r) = filter (fun n => forallb (set_mem n) r) s.
Proof.
  cbn [fast_and]. revert s. induction r as [|t r IH]; intros s; cbn [fold_left forallb].
  - symmetry. now apply filter_all, Forall_forall.
  - rewrite IH. apply filter_filter.
Qed.

Lemma fast_and_In sets x : sets <> [] -> (In x (fast_and sets) <-> forall s, In s sets -> In x s).
Proof.
  destruct sets as [|s r]; [congruence|]. intros _. rewrite fast_and_filter, filter_In, forallb_forall. split.
  - intros [H1 H2] t [<-|H]; [exact H1|apply set_mem_In, H2, H].
  - intros H. split; [apply H; now left|]. intros t Ht. apply set_mem_In, H. now right.
Qed.
Lemma fast_and_NoDup sets : Forall (@NoDup N) sets -> NoDup (fast_and sets).
Proof. destruct 1; [constructor|]. rewrite fast_and_filter. now apply NoDup_filter. Qed.

Lemma combine_or_In sets x : In x (combine true sets) <-> exists s, In s sets /\ In x s.
Proof.
  unfold combine. destruct sets as [|s [|s' r]]; try apply fast_or_In.
  split; [intros H; exists s; cbn; auto|]. intros (s0 & [<-|[]] & H); exact H.
Qed.
Lemma combine_and_In sets x : sets <> [] -> (In x (combine false sets) <-> forall s, In s sets -> In x s).
Proof.
  intros Hne. unfold combine. destruct sets as [|s [|s' r]]; try (now apply fast_and_In).
  split; [intros H s0 [<-|[]]; exact H|]. intros H. apply H. now left.
Qed.
Lemma combine_NoDup is_or sets : Forall (@NoDup N) sets -> NoDup (combine is_or sets).
Proof.
  intros H. unfold combine. destruct sets as [|s [|s' r]]; destruct is_or;
    try apply fast_or_NoDup; try (now apply fast_and_NoDup). all: now inversion H.
Qed.

Lemma collect_combine sets : collect sets = combine true sets.
Proof. now destruct sets as [|s [|s' r]]. Qed.

Lemma bytes_eqb_sym a b : bytes_eqb a b = bytes_eqb b a.
Proof. exact (Bytes.bytes_eqb_sym a b). Qed.

Definition wf_bucket (b : bucket) : Prop :=
  ksorted (b_keys b) /\ forall k s, b_get k b = Some s -> s <> [] /\ NoDup s.

Lemma b_get_keys k b : In k (b_keys b) <-> b_get k b <> None.
Proof. symmetry. exact (aget_keys bytes_eqb_spec k b). Qed.

Lemma b_get_put k s b k' : b_get k' (b_put k s b) = if bytes_eqb k' k then Some s else b_get k' b.
Proof.
  induction b as [|[k0 s0] b IH]; cbn; [reflexivity|].
  destruct (lex_compare k k0) eqn:E; cbn; [|reflexivity|].
  - apply lex_compare_eq in E. subst k0. now destruct (bytes_eqb k' k).
  - rewrite IH. destruct (bytes_eqb_spec k' k0) as [->|]; [|reflexivity].
    destruct (bytes_eqb_spec k0 k) as [->|]; [|reflexivity]. now rewrite lex_compare_refl in E.
Qed.

Lemma b_get_del k b k' : b_get k' (b_del k b) = if bytes_eqb k' k then None else b_get k' b.
Proof. unfold b_del. rewrite <- (adel_filter bytes_eqb). exact (aget_adel bytes_eqb_spec k' k b). Qed.

Lemma b_keys_put k s b x : In x (b_keys (b_put k s b)) -> x = k \/ In x (b_keys b).
Proof.
  induction b as [|[k0 s0] b IH]; cbn; [intuition|].
  destruct (lex_compare k k0); cbn; intuition.
Qed.

Lemma b_put_sorted k s b : ksorted (b_keys b) -> ksorted (b_keys (b_put k s b)).
Proof.
  induction b as [|[k0 s0] b IH]; intros Hs; cbn.
  - repeat constructor.
  - cbn in Hs. apply ksorted_inv in Hs. destruct Hs as [Hs Hk].
    destruct (lex_compare k k0) eqn:E; cbn.
    + apply lex_compare_eq in E. subst. now constructor.
    + assert (Hlt : klt k k0) by (unfold klt, lex_lt; now rewrite E).
      constructor; [now constructor|]. constructor; [exact Hlt|].
      eapply Forall_impl; [|exact Hk]. intros a. now apply klt_trans.
    + constructor; [now apply IH|].
      apply Forall_forall. intros x Hx. apply b_keys_put in Hx. destruct Hx as [->|Hx].
      * unfold klt, lex_lt. now rewrite (lex_compare_antisym k k0), E.
      * rewrite Forall_forall in Hk. now apply Hk.
Qed.

Lemma b_keys_del k b : b_keys (b_del k b) = filter (fun x => negb (bytes_eqb k x)) (b_keys b).
Proof.
  unfold b_del, b_keys. induction b as [|[k0 s0] b IH]; cbn; [reflexivity|].
  destruct (bytes_eqb k k0); cbn; now rewrite IH.
Qed.

Lemma wf_put k s b : s <> [] -> NoDup s -> wf_bucket b -> wf_bucket (b_put k s b).
Proof.
  intros Hne Hnd [H1 H2]. split; [now apply b_put_sorted|].
  intros k' s'. rewrite b_get_put. destruct (bytes_eqb k' k); [|apply H2].
  intros E. injection E as <-. auto.
Qed.

Lemma wf_del k b : wf_bucket b -> wf_bucket (b_del k b).
Proof.
  intros [H1 H2]. split; [rewrite b_keys_del; now apply ksorted_filter|].
  intros k' s'. rewrite b_get_del. destruct (bytes_eqb k' k); [discriminate|apply H2].
Qed.

Lemma getset_NoDup k b : wf_bucket b -> NoDup (getset k b).
Proof.
  intros [_ Hw]. unfold getset. destruct (b_get k b) eqn:E; [apply (Hw _ _ E)|constructor].
Qed.

Lemma getset_key k b n : In n (getset k b) -> In k (b_keys b).
Proof.
  intros H. apply b_get_keys. unfold getset in H. destruct (b_get k b); [discriminate|destruct H].
Qed.

Lemma key_getset k b : wf_bucket b -> In k (b_keys b) -> exists n, In n (getset k b).
Proof.
  intros [_ Hw] H. apply b_get_keys in H. unfold getset.
  destruct (b_get k b) as [[|n s]|] eqn:E; [destruct (Hw _ _ E)| |]; try congruence.
  exists n. now left.
Qed.

(* abstract postings: is node n posted under key k? *)
Definition post := bytes -> N -> bool.
Definition represents (b : bucket) (p : post) : Prop := forall k n, set_mem n (getset k b) = p k n.

Definition pupd (k : bytes) (g : N -> bool -> bool) (p : post) : post :=
  fun k' n => if bytes_eqb k' k then g n (p k' n) else p k' n.

Lemma pupd_other k g p k' n : k' <> k -> pupd k g p k' n = p k' n.
Proof. intros H. unfold pupd. now destruct (bytes_eqb_spec k' k). Qed.
Lemma pupd_same k g p n : pupd k g p k n = g n (p k n).
Proof. unfold pupd. now rewrite bytes_eqb_refl. Qed.
Lemma pupd_ext k g p p' : (forall k' n, p k' n = p' k' n) -> forall k' n, pupd k g p k' n = pupd k g p' k' n.
Proof. intros H k' n. unfold pupd. now rewrite H. Qed.

Section IndexProofs.
  Context {V : Type}.
  Variable enc : V -> bytes.
  Variable veqb : V -> V -> bool.
  Variable valid : V -> Prop.

  Definition post_step (ch : @change V) (p : post) : post :=
    match c_prev ch, c_cur ch with
    | None, None => p
    | None, Some cur => pupd (enc cur) (gadd (c_id ch)) p
    | Some prev, None => pupd (enc prev) (gdel (c_id ch)) p
    | Some prev, Some cur =>
        if veqb prev cur then p
        else pupd (enc cur) (gadd (c_id ch)) (pupd (enc prev) (gdel (c_id ch)) p)
    end.
  Definition post_steps (cs : list (@change V)) (p : post) : post :=
    fold_left (fun p ch => post_step ch p) cs p.

  Lemma post_steps_app a b p : post_steps (a ++ b) p = post_steps b (post_steps a p).
  Proof. apply fold_left_app. Qed.

  Lemma post_steps_ext cs : forall p p', (forall k n, p k n = p' k n) ->
    forall k n, post_steps cs p k n = post_steps cs p' k n.
  Proof.
    induction cs as [|ch cs IH]; intros p p' H; cbn; [exact H|].
    apply IH. unfold post_step.
    destruct (c_prev ch) as [a|], (c_cur ch) as [c|]; try destruct (veqb a c); auto using pupd_ext.
  Qed.

  (* Go's == on T and the sortable key identify the same values *)
  Hypothesis enc_veqb : forall a b, valid a -> valid b -> (veqb a b = true <-> enc a = enc b).

  Definition ckey (it : @citem V) : bytes := enc (it_val it).

  (* The set cache c, built over the bucket b0 while a batch is processed,
     holds the postings p: entries have pairwise distinct keys, an entry's set
     is p at its key (and still the bucket's set while the entry is clean),
     and keys without an entry are as in the bucket. *)
  Record cinv (b0 : bucket) (c : @cache V) (p : post) : Prop := {
    ci_valid : Forall (fun it => valid (it_val it)) c;
    ci_keys : NoDup (map ckey c);
    ci_items : Forall (fun it => NoDup (it_set it) /\
                                 (forall n, set_mem n (it_set it) = p (ckey it) n) /\
                                 (it_dirty it = false -> it_set it = getset (ckey it) b0)) c;
    ci_rest : forall k, ~ In k (map ckey c) -> forall n, set_mem n (getset k b0) = p k n }.

  Definition item_ok (b0 : bucket) (p : post) (it : @citem V) : Prop :=
    NoDup (it_set it) /\ (forall n, set_mem n (it_set it) = p (ckey it) n) /\
    (it_dirty it = false -> it_set it = getset (ckey it) b0).

  Lemma item_ok_ext b0 p p' it : (forall n, p (ckey it) n = p' (ckey it) n) ->
    item_ok b0 p it -> item_ok b0 p' it.
  Proof. intros H (A1 & A2 & A3). split; [exact A1|]. split; [|exact A3]. intros n. now rewrite <- H. Qed.

  Lemma cinv_ext b0 c p p' : (forall k n, p k n = p' k n) -> cinv b0 c p -> cinv b0 c p'.
  Proof.
    intros H [Hv Hk Hi Hr]. constructor; auto.
    - eapply Forall_impl; [|exact Hi]. intros it. now apply item_ok_ext.
    - intros k Hn n. rewrite <- H. now apply Hr.
  Qed.

  Lemma cinv_nil b0 p : represents b0 p -> cinv b0 [] p.
  Proof. intros H. constructor; cbn; try constructor. intros k _ n. apply H. Qed.

  Lemma upd_item_eq f (it : @citem V) :
    upd_item f it = mkItem (it_val it) (fst (f (it_set it))) (snd (f (it_set it)) || it_dirty it).
  Proof. unfold upd_item. now destruct (f (it_set it)). Qed.
  Lemma new_item_eq b v f :
    new_item enc b v f = mkItem v (fst (f (getset (enc v) b))) (snd (f (getset (enc v) b))).
  Proof. unfold new_item. now destruct (f (getset (enc v) b)). Qed.

  Lemma item_ok_other b0 p it k g : ckey it <> k -> item_ok b0 p it -> item_ok b0 (pupd k g p) it.
  Proof. intros Hk. apply item_ok_ext. intros n. now rewrite pupd_other. Qed.

  Lemma item_ok_upd b0 p it f g : fspec f g -> item_ok b0 p it ->
    item_ok b0 (pupd (ckey it) g p) (upd_item f it).
  Proof.
    intros Hf (A1 & A2 & A3). destruct (Hf (it_set it)) as (F1 & F2 & F3).
    rewrite upd_item_eq. unfold item_ok, ckey. cbn. split; [auto|]. split.
    - intros n. now rewrite pupd_same, F1, A2.
    - intros Hd. apply orb_false_iff in Hd. destruct Hd as [Hd1 Hd2]. rewrite (F3 Hd1). auto.
  Qed.

  Lemma item_ok_new b0 p v f g : fspec f g -> wf_bucket b0 ->
    (forall n, set_mem n (getset (enc v) b0) = p (enc v) n) ->
    item_ok b0 (pupd (enc v) g p) (new_item enc b0 v f).
  Proof.
    intros Hf Hw Hr. destruct (Hf (getset (enc v) b0)) as (F1 & F2 & F3).
    rewrite new_item_eq. unfold item_ok, ckey. cbn.
    split; [apply F2, getset_NoDup, Hw|]. split; [|exact F3].
    intros n. now rewrite pupd_same, F1, Hr.
  Qed.

  Lemma ckey_upd f it : ckey (upd_item f it) = ckey it.
  Proof. now rewrite upd_item_eq. Qed.
  Lemma ckey_new b v f : ckey (new_item enc b v f) = enc v.
  Proof. now rewrite new_item_eq. Qed.

  (* c_update acts on the entry whose key is enc v, loading it from the bucket
     if there is none; ci_rest is what makes the loaded set right *)
  Lemma c_update_spec b0 p v f g c :
    wf_bucket b0 -> fspec f g -> valid v ->
    Forall (fun it => valid (it_val it)) c -> NoDup (map ckey c) -> Forall (item_ok b0 p) c ->
    (~ In (enc v) (map ckey c) -> forall n, set_mem n (getset (enc v) b0) = p (enc v) n) ->
    let c' := c_update enc veqb b0 v f c in
    Forall (fun it => valid (it_val it)) c' /\ Forall (item_ok b0 (pupd (enc v) g p)) c' /\
    NoDup (map ckey c') /\ forall k, In k (map ckey c') <-> k = enc v \/ In k (map ckey c).
  Proof.
    intros Hw Hf Hv. induction c as [|it c IH]; cbn [c_update map]; intros Hval Hk Hi Hr.
    - rewrite ckey_new. split; [|split; [|split]].
      + constructor; [now rewrite new_item_eq|constructor].
      + constructor; [apply item_ok_new; auto|constructor].
      + repeat constructor. intros [].
      + intros k. split; (intros [->|[]]; now left).
    - apply Forall_cons_iff in Hval as [Hv1 Hv2]. apply NoDup_cons_iff in Hk as [Hk1 Hk2].
      apply Forall_cons_iff in Hi as [Hi1 Hi2].
      pose proof (enc_veqb _ _ Hv1 Hv) as Eq. fold (ckey it) in Eq.
      destruct (veqb (it_val it) v).
      + (* the entry of a veqb-equal value, hence of this key; no other entry has it *)
        rewrite <- (proj1 Eq eq_refl). cbn [map]. rewrite ckey_upd. split; [|split; [|split]].
        * constructor; [now rewrite upd_item_eq|exact Hv2].
        * constructor; [now apply item_ok_upd|].
          rewrite Forall_forall in Hi2 |- *. intros x Hx. apply item_ok_other; [|auto].
          intros Ex. apply Hk1. rewrite <- Ex. now apply in_map.
        * now constructor.
        * intros k. split; [now right|]. intros [->|H]; [now left|exact H].
      + assert (Hne : ckey it <> enc v) by (intros Ek; apply Eq in Ek; discriminate).
        destruct IH as (I1 & I2 & I3 & I4); auto.
        { intros Hn. apply Hr. intros [E|E]; auto. }
        cbn [map]. split; [|split; [|split]].
        * now constructor.
        * constructor; [now apply item_ok_other|exact I2].
        * constructor; [rewrite I4; intros [E|E]; auto|exact I3].
        * intros k. cbn [In]. rewrite I4. clear. tauto.
  Qed.

  Lemma c_update_inv b0 c p v f g :
    wf_bucket b0 -> cinv b0 c p -> valid v -> fspec f g ->
    cinv b0 (c_update enc veqb b0 v f c) (pupd (enc v) g p).
  Proof.
    intros Hw [Hv Hk Hi Hr] Hval Hf.
    destruct (c_update_spec b0 p v f g c Hw Hf Hval Hv Hk Hi) as (I1 & I2 & I3 & I4); [auto|].
    constructor; auto.
    intros k Hn n. rewrite I4 in Hn. rewrite pupd_other by tauto. apply Hr. tauto.
  Qed.

  Definition change_valid (ch : @change V) : Prop := ovalid valid (c_prev ch) /\ ovalid valid (c_cur ch).

  Lemma process_change_inv b0 c p ch :
    wf_bucket b0 -> cinv b0 c p -> change_valid ch ->
    cinv b0 (process_change enc veqb b0 ch c) (post_step ch p).
  Proof.
    intros Hw Hc [Hp Hcu]. unfold process_change, post_step.
    destruct (c_prev ch) as [a|], (c_cur ch) as [cu|]; cbn in Hp, Hcu; try destruct (veqb a cu);
      auto using c_update_inv, set_add_spec, set_remove_spec.
  Qed.

  Lemma process_batch_inv b0 cs : forall c p,
    wf_bucket b0 -> cinv b0 c p -> Forall change_valid cs ->
    cinv b0 (fold_left (fun c ch => process_change enc veqb b0 ch c) cs c) (post_steps cs p).
  Proof.
    induction cs as [|ch cs IH]; intros c p Hw Hc Hv; cbn; [exact Hc|].
    apply Forall_cons_iff in Hv as [Hv1 Hv2]. apply IH; auto. now apply process_change_inv.
  Qed.

  Lemma flush_item_get it b k :
    b_get k (flush_item enc it b) =
      if bytes_eqb k (ckey it) && it_dirty it
      then (if is_empty (it_set it) then None else Some (it_set it))
      else b_get k b.
  Proof.
    unfold flush_item, ckey. destruct (it_dirty it); [|now rewrite andb_false_r].
    rewrite andb_true_r. destruct (is_empty (it_set it)); [apply b_get_del|apply b_get_put].
  Qed.

  (* with pairwise distinct keys, the entry of a key alone decides what flush leaves there *)
  Lemma flush_get c : forall b k, NoDup (map ckey c) ->
    b_get k (flush enc c b) =
      match find (fun it => bytes_eqb k (ckey it)) c with
      | Some it => if it_dirty it then (if is_empty (it_set it) then None else Some (it_set it)) else b_get k b
      | None => b_get k b
      end.
  Proof.
    unfold flush. induction c as [|it c IH]; intros b k Hnd; cbn [fold_left find map]; [reflexivity|].
    cbn [map] in Hnd. apply NoDup_cons_iff in Hnd as [Hn1 Hn2].
    rewrite IH, flush_item_get by exact Hn2.
    destruct (bytes_eqb_spec k (ckey it)) as [->|]; [|reflexivity]. cbn [andb].
    destruct (find _ c) as [x|] eqn:F; [|reflexivity].
    apply find_some in F. destruct F as [F1 F2]. apply bytes_eqb_eq in F2.
    destruct Hn1. rewrite F2. now apply in_map.
  Qed.

  Lemma flush_wf c : forall b, Forall (fun it => NoDup (it_set it)) c -> wf_bucket b -> wf_bucket (flush enc c b).
  Proof.
    unfold flush. induction c as [|it c IH]; intros b Hc Hw; cbn [fold_left]; [exact Hw|].
    apply Forall_cons_iff in Hc as [Hc1 Hc2]. apply IH; [exact Hc2|].
    unfold flush_item. destruct (it_dirty it); [|exact Hw].
    destruct (is_empty (it_set it)) eqn:E; [now apply wf_del|].
    apply wf_put; [|exact Hc1|exact Hw]. intros E'. now rewrite E' in E.
  Qed.

  Lemma getset_empty_or s : (if is_empty s then None else Some s) = Some s \/ s = [].
  Proof. destruct s; cbn; auto. Qed.

  Lemma flush_inv b0 c p : wf_bucket b0 -> cinv b0 c p ->
    wf_bucket (flush enc c b0) /\ represents (flush enc c b0) p.
  Proof.
    intros Hw [Hv Hk Hi Hr]. split.
    - apply flush_wf; [|exact Hw]. eapply Forall_impl; [|exact Hi]. now intros it [H _].
    - intros k n. unfold getset at 1. rewrite (flush_get c b0 k Hk).
      destruct (find _ c) as [it|] eqn:F.
      + apply find_some in F. destruct F as [F1 F2]. apply bytes_eqb_eq in F2. subst k.
        rewrite Forall_forall in Hi. destruct (Hi _ F1) as (_ & A2 & A3). rewrite <- A2.
        destruct (it_dirty it); [|now rewrite (A3 eq_refl)].
        now destruct (getset_empty_or (it_set it)) as [-> | ->].
      + apply Hr. intros Hin. apply in_map_iff in Hin. destruct Hin as (x & Hx1 & Hx2).
        apply (find_none _ _ F) in Hx2. cbn in Hx2. now rewrite Hx1, bytes_eqb_refl in Hx2.
  Qed.

  Lemma apply_batch_inv b p cs :
    wf_bucket b -> represents b p -> Forall change_valid cs ->
    wf_bucket (apply_batch enc veqb b cs) /\ represents (apply_batch enc veqb b cs) (post_steps cs p).
  Proof.
    intros Hw Hr Hv. apply flush_inv; [exact Hw|].
    apply process_batch_inv; auto. now apply cinv_nil.
  Qed.

  Lemma history_inv hs : forall b p,
    wf_bucket b -> represents b p -> Forall change_valid (concat hs) ->
    wf_bucket (fold_left (apply_batch enc veqb) hs b) /\
    represents (fold_left (apply_batch enc veqb) hs b) (post_steps (concat hs) p).
  Proof.
    induction hs as [|cs hs IH]; intros b p Hw Hr Hv; cbn [fold_left concat]; [split; assumption|].
    apply Forall_app in Hv. destruct Hv as [Hv1 Hv2].
    destruct (apply_batch_inv b p cs Hw Hr Hv1) as [Hw' Hr'].
    rewrite post_steps_app. now apply IH.
  Qed.

  (* a history starts from the empty bucket, where nothing is posted *)
  Lemma run_inv hs p : (forall k n, p k n = false) -> Forall change_valid (concat hs) ->
    wf_bucket (run_history enc veqb hs) /\
    represents (run_history enc veqb hs) (post_steps (concat hs) p).
  Proof.
    intros Hp. apply history_inv; [split; [constructor|discriminate]|].
    intros k n. now rewrite Hp.
  Qed.

  (* after a consistent history the postings are those of the stored values *)
  Definition post_of (st : N -> option V) : post :=
    fun k n => match st n with Some v => bytes_eqb k (enc v) | None => false end.

  (* Only node c_id ch is touched.  It was posted under the key of its previous
     value alone: the delete clears that and the add posts the current key. *)
  Lemma post_step_consistent st ch :
    c_prev ch = st (c_id ch) -> change_valid ch ->
    forall k n, post_step ch (post_of st) k n = post_of (st_step st ch) k n.
  Proof.
    intros Hp [Hv1 Hv2] k n. unfold post_step, post_of, st_step, pupd, gadd, gdel.
    destruct (c_prev ch) as [a|], (c_cur ch) as [c|]; try destruct (veqb a c) eqn:E;
      (destruct (N.eqb_spec n (c_id ch)) as [->|Hn]; [rewrite <- Hp|]); cbn; try reflexivity;
      try (now destruct (bytes_eqb k (enc c)), (bytes_eqb k (enc a)));
      try (now destruct (bytes_eqb k (enc c))); try (now destruct (bytes_eqb k (enc a))).
    now rewrite (proj1 (enc_veqb _ _ Hv1 Hv2) E).
  Qed.

  Lemma consistent_valid st cs : consistent_from valid st cs -> Forall change_valid cs.
  Proof.
    revert st. induction cs as [|ch cs IH]; intros st H; cbn in H; [constructor|].
    destruct H as (H1 & H2 & H3 & H4). constructor; [split; assumption|]. eapply IH; eauto.
  Qed.

  Lemma post_steps_consistent cs : forall st, consistent_from valid st cs ->
    forall k n, post_steps cs (post_of st) k n = post_of (stored_from st cs) k n.
  Proof.
    induction cs as [|ch cs IH]; intros st H k n; [reflexivity|].
    destruct H as (H1 & H2 & H3 & H4).
    etransitivity; [|exact (IH _ H4 k n)].
    apply (post_steps_ext cs (post_step ch (post_of st))), post_step_consistent; [exact H1|now split].
  Qed.

  Lemma stored_valid cs : forall st, consistent_from valid st cs ->
    (forall n v, st n = Some v -> valid v) ->
    forall n v, stored_from st cs n = Some v -> valid v.
  Proof.
    induction cs as [|ch cs IH]; intros st H Hst n v; cbn; [apply Hst|].
    destruct H as (H1 & H2 & H3 & H4). apply IH; [exact H4|].
    intros m w. unfold st_step. destruct (m =? c_id ch); [|apply Hst].
    intros E. now rewrite E in H3.
  Qed.

  Lemma run_stored_valid hs : consistent valid hs -> forall n v, stored_after hs n = Some v -> valid v.
  Proof. intros Hc. apply (stored_valid _ _ Hc). discriminate. Qed.

  Theorem run_consistent hs : consistent valid hs ->
    wf_bucket (run_history enc veqb hs) /\
    forall k n, In n (getset k (run_history enc veqb hs)) <-> exists v, stored_after hs n = Some v /\ enc v = k.
  Proof.
    intros Hc. destruct (run_inv hs (post_of (fun _ => None))) as [Hw Hr];
      [reflexivity|exact (consistent_valid _ _ Hc)|]. split; [exact Hw|].
    intros k n. rewrite <- set_mem_In, (Hr k n), (post_steps_consistent _ _ Hc).
    unfold post_of. fold (stored_after hs).
    destruct (stored_after hs n) as [v|].
    - rewrite bytes_eqb_eq. split; [intros ->; eauto|]. now intros (w & [= <-] & E).
    - split; [discriminate|]. now intros (w & E & _).
  Qed.

End IndexProofs.

Lemma key_matches_eq qk ek k : key_matches OP_EQ qk ek k = bytes_eqb k qk.
Proof. unfold key_matches, bytes_eqb. cbn. now destruct (lex_compare k qk). Qed.

Lemma key_matches_prefix qk ek k : key_matches OP_PREFIX qk ek k = is_prefix qk k.
Proof. reflexivity. Qed.

Lemma op_num_scan op : op_num op -> op_scan op /\ (op =? OP_PREFIX) = false.
Proof. unfold op_scan. intros [->|[->|[->|[->|[->|[->| ->]]]]]]; split; tauto || reflexivity. Qed.

Lemma is_prefix_same_len a : forall b, length a = length b -> (is_prefix a b = true <-> a = b).
Proof.
  induction a as [|x a IH]; intros [|y b] Hl; cbn in *; try discriminate; [tauto|].
  rewrite andb_true_iff, N.eqb_eq, IH by lia. split; [intros [-> ->]; reflexivity|].
  intros E; inversion E; auto.
Qed.

Section SearchProofs.
  Context {V : Type}.
  Variable enc : V -> bytes.
  Variable dec : bytes -> V.
  Variable veqb : V -> V -> bool.
  Variable valid : V -> Prop.
  Hypothesis enc_veqb : forall a b, valid a -> valid b -> (veqb a b = true <-> enc a = enc b).
  Hypothesis dec_valid : forall a, valid a -> valid (dec (enc a)).
  Hypothesis dec_enc : forall a, valid a -> enc (dec (enc a)) = enc a.

  Definition isenc (k : bytes) : Prop := exists v, valid v /\ enc v = k.

  Lemma dec_inj k1 k2 : isenc k1 -> isenc k2 -> veqb (dec k1) (dec k2) = true -> k1 = k2.
  Proof.
    intros (v1 & V1 & <-) (v2 & V2 & <-) H.
    apply (enc_veqb _ _ (dec_valid _ V1) (dec_valid _ V2)) in H.
    now rewrite !dec_enc in H.
  Qed.

  (* distinct keys never alias in the per-Search cache *)
  Lemma scan_sets_id kvs : forall c,
    (forall k, In k (map fst kvs) -> isenc k) -> NoDup (map fst kvs) ->
    (forall e, In e c -> exists k', isenc k' /\ fst e = dec k' /\ ~ In k' (map fst kvs)) ->
    scan_sets dec veqb kvs c = map snd kvs.
  Proof.
    induction kvs as [|[k s] kvs IH]; intros c He Hnd Hc; cbn [scan_sets map]; [reflexivity|].
    cbn [map fst] in He, Hnd. apply NoDup_cons_iff in Hnd as [Hn1 Hn2].
    destruct (find _ c) as [e|] eqn:F.
    - exfalso. apply find_some in F. destruct F as [F1 F2].
      destruct (Hc _ F1) as (k' & K1 & K2 & K3). rewrite K2 in F2.
      apply dec_inj in F2; [|exact K1|apply He; now left]. apply K3. now left.
    - cbn [snd]. f_equal. apply IH; [auto using in_cons|exact Hn2|].
      intros e [<-|Hin].
      + exists k. auto using in_eq.
      + destruct (Hc _ Hin) as (k' & K1 & K2 & K3). exists k'. cbn in K3. tauto.
  Qed.

  Lemma scan_filter b f : wf_bucket b -> (forall k, In k (b_keys b) -> isenc k) ->
    same_set (collect (scan_sets dec veqb (kvs_of b (filter f (b_keys b))) []))
             (fun n => exists k, In n (getset k b) /\ f k = true).
  Proof.
    intros Hw He. unfold kvs_of. rewrite scan_sets_id; rewrite !map_map; cbn [fst snd]; rewrite ?map_id.
    - rewrite collect_combine. split.
      + apply combine_NoDup, Forall_map, Forall_forall. intros k _. now apply getset_NoDup.
      + intros n. rewrite combine_or_In. split.
        * intros (s & Hs & Hn). apply in_map_iff in Hs. destruct Hs as (k & <- & Hk).
          apply filter_In in Hk. exists k. tauto.
        * intros (k & Hn & Hf). exists (getset k b). split; [|exact Hn].
          apply (in_map (fun k => getset k b)), filter_In. split; [|exact Hf]. eapply getset_key; eauto.
    - intros k Hk. apply filter_In in Hk. apply He, Hk.
    - apply NoDup_filter, ksorted_NoDup, Hw.
    - intros e [].
  Qed.

  Lemma search_scan b op q e : ksorted (b_keys b) -> op_scan op -> op <> OP_EQ ->
    search enc dec veqb op q e b =
    Some (collect (scan_sets dec veqb (kvs_of b (filter (key_matches op (enc q) (enc e)) (b_keys b))) [])).
  Proof.
    intros Hs Hop Hne. unfold search, search_with.
    rewrite !bbolt_range_spec, bbolt_prefix_spec by exact Hs.
    destruct Hop as [->|[->|[->|[->|[->|[->|[->| ->]]]]]]]; [contradiction|..];
      (erewrite filter_ext; [reflexivity|]); intros k;
      unfold key_matches, in_range, start_ok, end_ok, lex_lt, lex_le, bytes_eqb; cbn;
      rewrite ?(lex_compare_antisym k (enc q));
      now destruct (lex_compare k (enc q)), (lex_compare k (enc e)).
  Qed.

  (* Search at the level of keys: the ids posted under the keys the operator selects *)
  Theorem search_keys b op q e :
    wf_bucket b -> (forall k, In k (b_keys b) -> isenc k) -> op_scan op ->
    returns (search enc dec veqb op q e b)
      (fun n => exists k, In n (getset k b) /\ key_matches op (enc q) (enc e) k = true).
  Proof.
    intros Hw He Hop. destruct (N.eq_dec op OP_EQ) as [->|Hne].
    - (* equals: a single Get *)
      apply returns_some. split; [now apply getset_NoDup|]. intros n. split.
      + intros H. exists (enc q). now rewrite key_matches_eq, bytes_eqb_refl.
      + intros (k & H1 & H2). rewrite key_matches_eq in H2. apply bytes_eqb_eq in H2. now subst.
    - rewrite search_scan by (auto; apply Hw). now apply returns_some, scan_filter.
  Qed.

  Lemma scan_sets_sub kvs : forall c s, In s (scan_sets dec veqb kvs c) ->
    In s (map snd kvs) \/ In s (map snd c).
  Proof.
    induction kvs as [|[k s0] kvs IH]; intros c s H; cbn [scan_sets] in H; [destruct H|].
    destruct (find _ c) as [e|] eqn:F; destruct H as [<-|H]; cbn; auto.
    - right. apply in_map. now apply find_some in F.
    - destruct (IH _ _ H); auto.
    - destruct (IH _ _ H) as [H'|[<-|H']]; auto.
  Qed.

  Lemma search_sound_any range prefix op q e b r n :
    search_with enc dec veqb range prefix op q e b = Some r -> In n r -> exists k, In n (getset k b).
  Proof.
    assert (Hscan : forall sel, In n (collect (scan_sets dec veqb (kvs_of b sel) [])) ->
                      exists k, In n (getset k b)).
    { intros sel Hn. rewrite collect_combine in Hn. apply combine_or_In in Hn. destruct Hn as (s & Hs & Hn).
      apply scan_sets_sub in Hs. destruct Hs as [Hs|[]].
      unfold kvs_of in Hs. rewrite map_map in Hs. apply in_map_iff in Hs. destruct Hs as (k & <- & _). eauto. }
    unfold search_with. intros H Hn.
    destruct op as [|[[[]|[]|]|[[]|[]|]|]]; inversion H; subst; eauto.
  Qed.

  Theorem backends_agree b op q e : ksorted (b_keys b) ->
    search_mem enc dec veqb op q e b = search enc dec veqb op q e b.
  Proof.
    intros Hs. unfold search_mem, search, search_with.
    rewrite !mem_range_spec, !bbolt_range_spec by exact Hs.
    unfold mem_prefix. now rewrite bbolt_prefix_spec by exact Hs.
  Qed.

  Corollary backends_agree_hist hs op q e : consistent valid hs ->
    search_mem enc dec veqb op q e (run_history enc veqb hs) = search enc dec veqb op q e (run_history enc veqb hs).
  Proof. intros Hc. apply backends_agree, (run_consistent enc veqb valid enc_veqb hs Hc). Qed.

  (* Search after a consistent history, in terms of the stored values' keys *)
  Theorem search_hist_keys hs op q e :
    consistent valid hs -> op_scan op ->
    returns (search enc dec veqb op q e (run_history enc veqb hs))
      (fun n => exists v, stored_after hs n = Some v /\ key_matches op (enc q) (enc e) (enc v) = true).
  Proof.
    intros Hc Hop. destruct (run_consistent enc veqb valid enc_veqb hs Hc) as [Hw Hp].
    eapply returns_ext; [|apply search_keys; [exact Hw| |exact Hop]].
    - intros n. split.
      + intros (k & K1 & K2). apply Hp in K1. destruct K1 as (v & S1 & <-). eauto.
      + intros (v & S1 & S2). exists (enc v). split; [apply Hp; eauto|exact S2].
    - intros k Hk. destruct (key_getset _ _ Hw Hk) as [n Hn]. apply Hp in Hn.
      destruct Hn as (v & S1 & S2). exists v. split; [|exact S2].
      exact (run_stored_valid valid hs Hc _ _ S1).
  Qed.

  (* keys of one length: startsWith can only match the whole key *)
  Theorem search_prefix_fixed_len len hs q e :
    (forall a, valid a -> length (enc a) = len) -> consistent valid hs -> valid q ->
    returns (search enc dec veqb OP_PREFIX q e (run_history enc veqb hs))
      (fun n => exists v, stored_after hs n = Some v /\ veqb v q = true).
  Proof.
    intros Hlen Hc Hq. eapply returns_ext; [|apply (search_hist_keys hs OP_PREFIX q e Hc); unfold op_scan, OP_PREFIX; tauto].
    intros n. split; intros (v & S1 & S2); exists v; (split; [exact S1|]);
      pose proof (run_stored_valid valid hs Hc _ _ S1) as Hv.
    - apply (enc_veqb _ _ Hv Hq). symmetry. revert S2. rewrite key_matches_prefix.
      apply is_prefix_same_len. now rewrite !Hlen.
    - apply (enc_veqb _ _ Hv Hq) in S2. rewrite key_matches_prefix, S2.
      now apply is_prefix_same_len.
  Qed.

  Variable vcmp : V -> V -> comparison.
  Hypothesis enc_cmp : forall a b, valid a -> valid b -> lex_compare (enc a) (enc b) = vcmp a b.

  Theorem search_values hs op q e :
    consistent valid hs -> valid q -> valid e -> op_num op ->
    returns (search enc dec veqb op q e (run_history enc veqb hs))
      (fun n => exists v, stored_after hs n = Some v /\ cmp_matches op (vcmp v q) (vcmp v e) = true).
  Proof.
    intros Hc Hq He Hop. apply op_num_scan in Hop as [Hop Hpre].
    eapply returns_ext; [|exact (search_hist_keys hs op q e Hc Hop)].
    intros n. split; intros (v & S1 & S2); exists v; (split; [exact S1|]);
      pose proof (run_stored_valid valid hs Hc _ _ S1) as Hv;
      revert S2; unfold key_matches; now rewrite Hpre, !enc_cmp by assumption.
  Qed.

  Theorem absent_never_matches hs n :
    consistent valid hs -> stored_after hs n = None ->
    (forall k, set_mem n (getset k (run_history enc veqb hs)) = false) /\
    (forall op q e r, search enc dec veqb op q e (run_history enc veqb hs) = Some r -> ~ In n r) /\
    (forall op q e r, search_mem enc dec veqb op q e (run_history enc veqb hs) = Some r -> ~ In n r).
  Proof.
    intros Hc Hn. destruct (run_consistent enc veqb valid enc_veqb hs Hc) as [_ Hp].
    assert (Hno : forall k, ~ In n (getset k (run_history enc veqb hs))).
    { intros k H. apply Hp in H. destruct H as (v & S1 & _). congruence. }
    split; [intros k; apply set_mem_false, Hno|].
    split; intros op q e r H Hin; destruct (search_sound_any _ _ _ _ _ _ _ _ H Hin) as [k Hk]; exact (Hno k Hk).
  Qed.
End SearchProofs.

Lemma int_enc_veqb a b : in_i64 a -> in_i64 b -> (Z.eqb a b = true <-> enc_i64 a = enc_i64 b).
Proof.
  intros Ha Hb. rewrite Z.eqb_eq, <- lex_compare_eq, enc_i64_compare by assumption.
  symmetry. apply Z.compare_eq_iff.
Qed.
Lemma int_dec_valid a : in_i64 a -> in_i64 (dec_i64 (enc_i64 a)).
Proof. intros Ha. now rewrite dec_enc_i64. Qed.
Lemma int_dec_enc a : in_i64 a -> enc_i64 (dec_i64 (enc_i64 a)) = enc_i64 a.
Proof. intros Ha. now rewrite dec_enc_i64. Qed.

Lemma flt_enc_veqb a b : f64_valid a -> f64_valid b -> (f64_eq a b = true <-> enc_f64 a = enc_f64 b).
Proof.
  intros [Ha _] [Hb _]. unfold f64_eq. rewrite Z.eqb_eq, <- lex_compare_eq, enc_f64_compare by assumption.
  symmetry. apply Z.compare_eq_iff.
Qed.
Lemma flt_norm_valid a : f64_valid a -> f64_valid (if f64_is_zero a then 0 else a).
Proof. intros Ha. destruct (f64_is_zero a); [split; reflexivity|exact Ha]. Qed.
Lemma flt_dec_valid a : f64_valid a -> f64_valid (dec_f64 (enc_f64 a)).
Proof. intros Ha. rewrite dec_enc_f64 by exact (proj1 Ha). now apply flt_norm_valid. Qed.
Lemma flt_dec_enc a : f64_valid a -> enc_f64 (dec_f64 (enc_f64 a)) = enc_f64 a.
Proof.
  intros Ha. rewrite dec_enc_f64 by exact (proj1 Ha).
  apply (flt_enc_veqb _ _ (flt_norm_valid a Ha) Ha). apply f64_eq_norm.
Qed.
Lemma flt_enc_cmp a b : f64_valid a -> f64_valid b ->
  lex_compare (enc_f64 a) (enc_f64 b) = Z.compare (f64_ord a) (f64_ord b).
Proof. intros [Ha _] [Hb _]. now apply enc_f64_compare. Qed.

Lemma enc_f64_length b : length (enc_f64 b) = 8%nat.
Proof. apply be_length. Qed.

Lemma str_enc_veqb a b : any_str a -> any_str b -> (bytes_eqb a b = true <-> enc_str a = enc_str b).
Proof. intros _ _. apply bytes_eqb_eq. Qed.
Lemma str_dec_valid a : any_str a -> any_str (dec_str (enc_str a)).
Proof. intros _. exact I. Qed.
Lemma str_dec_enc a : any_str a -> enc_str (dec_str (enc_str a)) = enc_str a.
Proof. reflexivity. Qed.

(* the string index is the generic index over the folded values *)
Section StrProofs.
  Variable fold : bytes -> bytes.

  Lemma fold_history cs : forall st st', (forall n, st' n = option_map fold (st n)) ->
    (forall n, stored_from st' (map (str_change fold) cs) n = option_map fold (stored_from st cs n)) /\
    (consistent_from any_str st cs -> consistent_from any_str st' (map (str_change fold) cs)).
  Proof.
    induction cs as [|ch cs IH]; intros st st' H; cbn; [auto|].
    destruct (IH (st_step st ch) (st_step st' (str_change fold ch))) as [IH1 IH2].
    { intros m. unfold st_step. cbn. destruct (m =? c_id ch); [reflexivity|apply H]. }
    split; [exact IH1|]. intros (H1 & _ & _ & H4).
    split; [now rewrite H, <- H1|]. split; [now destruct (c_prev ch)|]. split; [now destruct (c_cur ch)|auto].
  Qed.

  Lemma stored_after_fold hs n :
    stored_after (map (map (str_change fold)) hs) n = option_map fold (stored_after hs n).
  Proof. unfold stored_after. rewrite <- concat_map. now apply fold_history. Qed.

  Lemma consistent_fold hs : consistent any_str hs -> consistent any_str (map (map (str_change fold)) hs).
  Proof. unfold consistent. rewrite <- concat_map. now apply fold_history. Qed.

  Lemma stored_fold_ex hs n (P : bytes -> Prop) :
    (exists v, stored_after (map (map (str_change fold)) hs) n = Some v /\ P v) <->
    (exists x, stored_after hs n = Some x /\ P (fold x)).
  Proof.
    rewrite stored_after_fold. destruct (stored_after hs n) as [x|]; cbn;
      split; intros (y & E & H); try discriminate; injection E as <-; eauto.
  Qed.

  Lemma str_run_consistent hs : consistent any_str hs ->
    wf_bucket (str_run fold hs) /\
    forall k n, In n (getset k (str_run fold hs)) <-> exists x, stored_after hs n = Some x /\ fold x = k.
  Proof.
    intros Hc. destruct (run_consistent enc_str bytes_eqb any_str str_enc_veqb _ (consistent_fold hs Hc)) as [Hw Hp].
    split; [exact Hw|]. intros k n. unfold str_run. rewrite Hp. apply (stored_fold_ex hs n (fun v => v = k)).
  Qed.

  Theorem str_search_exact hs op q e :
    consistent any_str hs -> op_scan op ->
    returns (str_search fold op q e (str_run fold hs))
      (fun n => exists x, stored_after hs n = Some x /\ matches_str op (fold q) (fold e) (fold x) = true).
  Proof.
    intros Hc Hop. eapply returns_ext;
      [|exact (search_hist_keys enc_str dec_str bytes_eqb any_str str_enc_veqb str_dec_valid str_dec_enc
                 _ op (fold q) (fold e) (consistent_fold hs Hc) Hop)].
    intros n. apply (stored_fold_ex hs n (fun v => matches_str op (fold q) (fold e) v = true)).
  Qed.
End StrProofs.

Lemma mem_bytes_dedup k l : mem_bytes k (dedup_v bytes_eqb l) = mem_bytes k l.
Proof.
  induction l as [|x l IH]; cbn [dedup_v]; [reflexivity|].
  change (mem_v bytes_eqb x l) with (mem_bytes x l).
  destruct (mem_bytes x l) eqn:E; cbn; fold (mem_bytes k (dedup_v bytes_eqb l)) (mem_bytes k l);
    rewrite IH; [|reflexivity].
  destruct (bytes_eqb_spec k x) as [->|]; [now rewrite E|reflexivity].
Qed.

(* a run of changes each applying an idempotent g at the key of one value of l *)
Lemma pupd_steps (mk : bytes -> @change bytes) g l :
  (forall v p, post_step enc_str bytes_eqb (mk v) p = pupd v g p) ->
  (forall n m, g n (g n m) = g n m) ->
  forall p k n, post_steps enc_str bytes_eqb (map mk l) p k n = if mem_bytes k l then g n (p k n) else p k n.
Proof.
  intros Hmk Hg. unfold post_steps. induction l as [|v l IH]; intros p k n; cbn [map fold_left]; [reflexivity|].
  rewrite IH, Hmk. unfold pupd. cbn [mem_bytes existsb].
  destruct (bytes_eqb k v); cbn [orb]; [|reflexivity]. fold (mem_bytes k l).
  destruct (mem_bytes k l); [apply Hg|reflexivity].
Qed.

(* setting the values of node a_id a from a_prev a to a_cur a *)
Lemma arr_expand_steps a p :
  (forall k, p k (a_id a) = mem_bytes k (a_prev a)) ->
  forall k n, post_steps enc_str bytes_eqb (arr_expand bytes_eqb a) p k n
              = if n =? a_id a then mem_bytes k (a_cur a) else p k n.
Proof.
  intros Hp k n. unfold arr_expand. rewrite post_steps_app.
  rewrite (pupd_steps _ (gdel (a_id a))), (pupd_steps _ (gadd (a_id a))); try reflexivity;
    try (intros n' m; unfold gadd, gdel; now destruct (n' =? a_id a)).
  rewrite !mem_bytes_filter, mem_bytes_dedup. unfold gadd, gdel.
  change (mem_v bytes_eqb k) with (mem_bytes k).
  destruct (N.eqb_spec n (a_id a)) as [->|Hn]; cbn [andb orb negb].
  - rewrite Hp. now destruct (mem_bytes k (a_prev a)), (mem_bytes k (a_cur a)).
  - now destruct (mem_bytes k (a_cur a) && _), (mem_bytes k (a_prev a) && _).
Qed.

Definition post_of_arr (st : N -> list bytes) : post := fun k n => mem_bytes k (st n).

Lemma arr_steps_consistent cs : forall st, aconsistent_from st cs ->
  forall k n, post_steps enc_str bytes_eqb (flat_map (arr_expand bytes_eqb) cs) (post_of_arr st) k n
              = post_of_arr (fold_left ast_step cs st) k n.
Proof.
  induction cs as [|a cs IH]; intros st Hc k n; cbn [flat_map fold_left]; [reflexivity|].
  destruct Hc as [H1 H2]. rewrite post_steps_app.
  etransitivity; [|exact (IH _ H2 k n)]. apply post_steps_ext. intros k' n'.
  rewrite arr_expand_steps.
  - unfold post_of_arr, ast_step. now destruct (n' =? a_id a).
  - intros k0. unfold post_of_arr. now rewrite H1.
Qed.

Lemma arr_run_unfold hs : forall b,
  fold_left (arr_apply_batch enc_str bytes_eqb) hs b
  = fold_left (apply_batch enc_str bytes_eqb) (map (flat_map (arr_expand bytes_eqb)) hs) b.
Proof. induction hs as [|cs hs IH]; intros b; cbn; [reflexivity|]. apply IH. Qed.

Lemma concat_flat_map {A B} (f : A -> list B) (hs : list (list A)) :
  concat (map (flat_map f) hs) = flat_map f (concat hs).
Proof.
  induction hs as [|cs hs IH]; cbn; [reflexivity|]. rewrite IH. symmetry. apply flat_map_app.
Qed.

Lemma arr_inv hs : aconsistent hs ->
  let b := arr_run_history enc_str bytes_eqb hs in
  wf_bucket b /\ forall k n, In n (getset k b) <-> In k (astored_after hs n).
Proof.
  intros Hc. cbn zeta. unfold arr_run_history. rewrite arr_run_unfold.
  destruct (run_inv enc_str bytes_eqb any_str str_enc_veqb (map (flat_map (arr_expand bytes_eqb)) hs)
              (post_of_arr (fun _ => []))) as [Hw Hr]; [reflexivity| |].
  { apply Forall_forall. intros ch _. split; [now destruct (c_prev ch)|now destruct (c_cur ch)]. }
  unfold run_history in Hw, Hr. split; [exact Hw|]. intros k n.
  rewrite <- set_mem_In, (Hr k n), concat_flat_map, (arr_steps_consistent _ _ Hc). apply mem_bytes_In.
Qed.

(* containsAll / containsAny merge the equals-results like searchParallel does *)
Lemma arr_search_combine {V} (enc : V -> bytes) op qs b : qs <> [] -> op = OP_ALL \/ op = OP_ANY ->
  arr_search enc op qs b = Some (combine (op =? OP_ANY) (map (fun q => getset (enc q) b) qs)).
Proof.
  intros Hne Hop. unfold arr_search, combine. destruct qs as [|q [|q' qs]]; [congruence|reflexivity|].
  now destruct Hop as [-> | ->].
Qed.

Section StrArrProofs.
  Variable fold : bytes -> bytes.

  Lemma fold_ahistory cs : forall st st', (forall n, st' n = map fold (st n)) ->
    (forall n, fold_left ast_step (map (sarr_change fold) cs) st' n = map fold (fold_left ast_step cs st n)) /\
    (aconsistent_from st cs -> aconsistent_from st' (map (sarr_change fold) cs)).
  Proof.
    induction cs as [|a cs IH]; intros st st' H; cbn; [auto|].
    destruct (IH (ast_step st a) (ast_step st' (sarr_change fold a))) as [IH1 IH2].
    { intros m. unfold ast_step. cbn. destruct (m =? a_id a); [reflexivity|apply H]. }
    split; [exact IH1|]. intros [H1 H2]. split; [now rewrite H, H1|auto].
  Qed.

  Lemma sarr_inv hs : aconsistent hs ->
    wf_bucket (sarr_run fold hs) /\
    forall k n, In n (getset k (sarr_run fold hs)) <-> In k (map fold (astored_after hs n)).
  Proof.
    intros Hc. unfold aconsistent in Hc.
    destruct (fold_ahistory (concat hs) (fun _ => []) (fun _ => [])) as [F1 F2]; [reflexivity|].
    destruct (arr_inv (map (map (sarr_change fold)) hs)) as [Hw Hr].
    { unfold aconsistent. rewrite <- concat_map. auto. }
    split; [exact Hw|]. intros k n. unfold sarr_run. rewrite Hr.
    unfold astored_after. now rewrite <- concat_map, F1.
  Qed.

  Theorem sarr_search_exact hs op qs :
    aconsistent hs -> qs <> [] -> op = OP_ALL \/ op = OP_ANY ->
    returns (sarr_search fold op qs (sarr_run fold hs))
      (fun n =>
        (if op =? OP_ALL then forallb (fun x => mem_bytes x (map fold (astored_after hs n))) (map fold qs)
         else existsb (fun x => mem_bytes x (map fold (astored_after hs n))) (map fold qs)) = true).
  Proof.
    intros Hc Hne Hop. destruct (sarr_inv hs Hc) as [Hw Hp]. set (b := sarr_run fold hs) in *.
    assert (Hne' : map fold qs <> []) by now destruct qs.
    unfold sarr_search. rewrite arr_search_combine by assumption. apply returns_some.
    assert (Hin : forall n q, In n (getset (enc_str q) b) <-> mem_bytes q (map fold (astored_after hs n)) = true)
      by (intros n q; rewrite mem_bytes_In; apply Hp).
    split.
    - apply combine_NoDup, Forall_map, Forall_forall. intros q _. now apply getset_NoDup.
    - intros n. destruct Hop as [-> | ->]; cbn [N.eqb OP_ALL OP_ANY Pos.eqb].
      + rewrite combine_and_In, forallb_forall, <- Forall_forall, Forall_map, Forall_forall
          by now destruct (map fold qs).
        split; intros H q Hq; apply Hin, H, Hq.
      + rewrite combine_or_In, existsb_exists, <- Exists_exists, Exists_map, Exists_exists.
        split; intros (q & Hq & H); exists q; (split; [exact Hq|apply Hin, H]).
  Qed.
End StrArrProofs.

Lemma answer_and_nil sc t live : answer sc t live (QAnd []) = Some (map fst live).
Proof. reflexivity. Qed.
Lemma answer_and_cons sc t live q qs :
  answer sc t live (QAnd (q :: qs)) =
  match answer sc t live q, answer sc t live (QAnd qs) with
  | Some a, Some b => Some (ids_inter a b) | _, _ => None end.
Proof. reflexivity. Qed.
Lemma answer_or_nil sc t live : answer sc t live (QOr []) = Some [].
Proof. reflexivity. Qed.
Lemma answer_or_cons sc t live q qs :
  answer sc t live (QOr (q :: qs)) =
  match answer sc t live q, answer sc t live (QOr qs) with
  | Some a, Some b => Some (ids_union a b) | _, _ => None end.
Proof. reflexivity. Qed.

Lemma answer_and_spec sc t live qs : forall r, answer sc t live (QAnd qs) = Some r ->
  exists subs, Forall2 (fun q a => answer sc t live q = Some a) qs subs /\
    forall x, mem_bytes x r = mem_bytes x (map fst live) && forallb (mem_bytes x) subs.
Proof.
  induction qs as [|q qs IH]; intros r H.
  - rewrite answer_and_nil in H. injection H as <-. exists []. split; [constructor|].
    intros x. cbn. now rewrite andb_true_r.
  - rewrite answer_and_cons in H.
    destruct (answer sc t live q) as [a|] eqn:Ea; [|discriminate].
    destruct (answer sc t live (QAnd qs)) as [b|]; [|discriminate].
    injection H as <-. destruct (IH b eq_refl) as (subs & F & Hm).
    exists (a :: subs). split; [now constructor|].
    intros x. rewrite mem_ids_inter, Hm. cbn.
    now destruct (mem_bytes x a), (mem_bytes x (map fst live)).
Qed.

Lemma answer_or_spec sc t live qs : forall r, answer sc t live (QOr qs) = Some r ->
  exists subs, Forall2 (fun q a => answer sc t live q = Some a) qs subs /\
    forall x, mem_bytes x r = existsb (mem_bytes x) subs.
Proof.
  induction qs as [|q qs IH]; intros r H.
  - rewrite answer_or_nil in H. injection H as <-. exists []. split; [constructor|reflexivity].
  - rewrite answer_or_cons in H.
    destruct (answer sc t live q) as [a|] eqn:Ea; [|discriminate].
    destruct (answer sc t live (QOr qs)) as [b|]; [|discriminate].
    injection H as <-. destruct (IH b eq_refl) as (subs & F & Hm).
    exists (a :: subs). split; [now constructor|].
    intros x. now rewrite mem_ids_union, Hm.
Qed.

Lemma map_opt_total {A B} (f : A -> option B) (g : A -> B) l :
  (forall x, f x = Some (g x)) -> map_opt f l = Some (map g l).
Proof. intros H. induction l as [|x l IH]; cbn; [reflexivity|]. now rewrite H, IH. Qed.

Lemma leaf_strarr_shape sc t cs fold p op qs d : schema_get p sc = Some (IStrArr cs) ->
  (forall s, fold_str cs t s = Some (fold s)) -> qs <> [] -> op = OP_ALL \/ op = OP_ANY ->
  leaf_matches sc t (QStrArr p op qs) d =
  Some (if op =? OP_ALL then forallb (fun x => mem_bytes x (map fold (field_strs p d))) (map fold qs)
        else existsb (fun x => mem_bytes x (map fold (field_strs p d))) (map fold qs)).
Proof.
  intros H Hf Hne Hop. unfold leaf_matches, field_strs. rewrite H, (map_opt_total _ fold qs Hf).
  (* without the field nothing matches: qs is not empty *)
  assert (Hempty : Some false = Some (if op =? OP_ALL
             then forallb (fun x => mem_bytes x (map fold [])) (map fold qs)
             else existsb (fun x => mem_bytes x (map fold [])) (map fold qs))).
  { destruct qs as [|q0 qs]; [congruence|]. destruct Hop as [-> | ->]; cbn; [reflexivity|].
    f_equal. clear. induction qs as [|x qs IH]; cbn; [reflexivity|exact IH]. }
  destruct (prop_value p d) as [| |[]]; try exact Hempty.
  rewrite (map_opt_total _ fold _ Hf). now destruct Hop as [-> | ->].
Qed.

(* flush ranges over the set cache in unspecified order; the model uses creation
   order.  With pairwise distinct keys (invariant ci_keys) the entry found for a
   key, and by flush_get what flush leaves under it, is the same in any order. *)
Lemma find_key_perm {V} (enc : V -> bytes) (c c' : @cache V) k :
  Permutation c c' -> NoDup (map (ckey enc) c) ->
  find (fun it => bytes_eqb k (ckey enc it)) c = find (fun it => bytes_eqb k (ckey enc it)) c'.
Proof.
  induction 1 as [|x l l' _ IH|x y l|l l' l'' P1 IH1 P2 IH2]; cbn; intros Hnd.
  - reflexivity.
  - apply NoDup_cons_iff in Hnd. now rewrite IH.
  - (* two adjacent entries cannot both have key k *)
    apply NoDup_cons_iff in Hnd as [Hy _].
    destruct (bytes_eqb_spec k (ckey enc y)) as [->|], (bytes_eqb_spec (ckey enc y) (ckey enc x)) as [E|];
      try reflexivity; try (now rewrite bytes_eqb_refl). destruct Hy. now left.
  - rewrite IH1, IH2; auto. eapply Permutation_NoDup; [|exact Hnd]. now apply Permutation_map.
Qed.
