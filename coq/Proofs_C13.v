(* Proofs_C13.v -- lemmas about rendezvous hashing (Model_C13.v).
   Everything is quantified over the hash function; the only hypothesis ever
   used is that the scores of the servers of the list are pairwise distinct. *)
From Coq Require Import List NArith Bool Arith Permutation Sorted RelationClasses.
From Semadb Require Import ListFacts Bytes Model_C13.
Import ListNotations.
Open Scope N_scope.

Section SortFacts.
  Context {A : Type} (f : A -> N).

  Definition le_on (a b : A) : Prop := f a <= f b.

  Lemma le_on_trans : Transitive le_on.
  Proof. intros a b c. apply N.le_trans. Qed.

  Lemma insert_by_perm x l : Permutation (insert_by f x l) (x :: l).
  Proof.
    induction l as [|y l IH]; cbn [insert_by]; [reflexivity|].
    destruct (f x <=? f y); [reflexivity|].
    rewrite IH. apply perm_swap.
  Qed.

  Lemma sort_on_perm l : Permutation (sort_on f l) l.
  Proof.
    induction l as [|x l IH]; cbn [sort_on fold_right]; [reflexivity|].
    fold (sort_on f l). rewrite insert_by_perm. now constructor.
  Qed.

  Lemma insert_by_hdrel a x l : HdRel le_on a l -> le_on a x -> HdRel le_on a (insert_by f x l).
  Proof.
    intros Hh Hx. destruct l as [|y l]; cbn [insert_by]; [now constructor|].
    destruct (f x <=? f y); constructor; [exact Hx|]. now inversion Hh.
  Qed.

  Lemma insert_by_sorted x l : Sorted le_on l -> Sorted le_on (insert_by f x l).
  Proof.
    induction l as [|y l IH]; intros Hs; cbn [insert_by].
    - repeat constructor.
    - destruct (N.leb_spec (f x) (f y)) as [Hle|Hgt].
      + constructor; [exact Hs|]. constructor. exact Hle.
      + inversion Hs as [|? ? Hs' Hh]; subst. constructor; [now apply IH|].
        apply insert_by_hdrel; [exact Hh|]. now apply N.lt_le_incl.
  Qed.

  Lemma sort_on_sorted l : Sorted le_on (sort_on f l).
  Proof.
    induction l as [|x l IH]; cbn [sort_on fold_right]; [constructor|].
    fold (sort_on f l). now apply insert_by_sorted.
  Qed.

  Lemma sorted_head_min a l x : Sorted le_on (a :: l) -> In x (a :: l) -> f a <= f x.
  Proof.
    intros S Hx. apply (Sorted_StronglySorted le_on_trans) in S. inversion S as [|? ? _ F]; subst.
    destruct Hx as [->|Hx]; [reflexivity|]. rewrite Forall_forall in F. exact (F x Hx).
  Qed.

  (* The heart of the matter: with pairwise distinct scores there is exactly
     one sorted arrangement of a list, whatever the sorting algorithm: both
     heads are the element of least score. *)
  Lemma sorted_perm_unique l1 : forall l2,
    Sorted le_on l1 -> Sorted le_on l2 -> Permutation l1 l2 -> NoDup (map f l1) -> l1 = l2.
  Proof.
    induction l1 as [|a l1 IH]; intros l2 S1 S2 P Hnd.
    - apply Permutation_nil in P. now subst.
    - destruct l2 as [|b l2]; [symmetry in P; apply Permutation_nil in P; discriminate|].
      assert (Ha : In a (b :: l2)) by (apply (Permutation_in _ P); now left).
      assert (Hb : In b (a :: l1)) by (apply (Permutation_in _ (Permutation_sym P)); now left).
      assert (a = b) as <-.
      { apply (NoDup_map_inj f (a :: l1)); [exact Hnd|now left|exact Hb|].
        apply N.le_antisymm; [exact (sorted_head_min _ _ _ S1 Hb)|exact (sorted_head_min _ _ _ S2 Ha)]. }
      f_equal. apply IH; [now inversion S1|now inversion S2|exact (Permutation_cons_inv P)|now inversion Hnd].
  Qed.

  Lemma sort_on_unique l out :
    Permutation out l -> Sorted le_on out -> NoDup (map f l) -> out = sort_on f l.
  Proof.
    intros P S Hnd. apply sorted_perm_unique; [exact S|apply sort_on_sorted|now rewrite sort_on_perm|].
    exact (Permutation_NoDup (Permutation_map f (Permutation_sym P)) Hnd).
  Qed.

  Lemma sort_on_perm_invariant l1 l2 :
    Permutation l1 l2 -> NoDup (map f l1) -> sort_on f l1 = sort_on f l2.
  Proof.
    intros P Hnd. apply sort_on_unique; [now rewrite sort_on_perm|apply sort_on_sorted|].
    exact (Permutation_NoDup (Permutation_map f P) Hnd).
  Qed.

  Lemma sort_on_head_min l o r :
    sort_on f l = o :: r -> In o l /\ forall s, In s l -> f o <= f s.
  Proof.
    intros E. pose proof (sort_on_perm l) as P. pose proof (sort_on_sorted l) as S.
    rewrite E in P, S. split.
    - apply (Permutation_in _ P). now left.
    - intros s Hs. apply (sorted_head_min _ _ _ S), (Permutation_in _ (Permutation_sym P) Hs).
  Qed.

  Lemma sort_on_nil l : sort_on f l = [] -> l = [].
  Proof. intros E. pose proof (sort_on_perm l) as P. rewrite E in P. now apply Permutation_nil in P. Qed.
End SortFacts.

Lemma insert_by_map {A B : Type} (f : A -> N) (g : B -> N) (d : A -> B) :
  (forall x, g (d x) = f x) -> forall x l, insert_by g (d x) (map d l) = map d (insert_by f x l).
Proof.
  intros H x l. induction l as [|y l IH]; cbn [map insert_by]; [reflexivity|].
  rewrite !H. destruct (f x <=? f y); cbn [map]; [reflexivity|]. now rewrite IH.
Qed.

Lemma sort_on_map {A B : Type} (f : A -> N) (g : B -> N) (d : A -> B) :
  (forall x, g (d x) = f x) -> forall l, sort_on g (map d l) = map d (sort_on f l).
Proof.
  intros H l. induction l as [|x l IH]; cbn [map sort_on fold_right]; [reflexivity|].
  fold (sort_on g (map d l)). fold (sort_on f l). rewrite IH. now apply insert_by_map.
Qed.

Lemma NoDup_map_remove {A B : Type} (f : A -> B) dec r l :
  NoDup (map f l) -> NoDup (map f (remove dec r l)).
Proof. rewrite <- remove_alt. apply NoDup_map_filter. Qed.

Section Rendezvous.
  Variable hash : bytes -> N.
  Variable key : bytes.
  Notation sc := (score hash key).

  Lemma map_fst_decorate servers : map fst (decorate hash key servers) = map sc servers.
  Proof. unfold decorate. rewrite map_map. reflexivity. Qed.

  Lemma map_snd_decorate servers : map snd (decorate hash key servers) = servers.
  Proof. unfold decorate. rewrite map_map. cbn. apply map_id. Qed.

  Lemma decorate_cons x servers :
    decorate hash key (x :: servers) = (sc x, x) :: decorate hash key servers.
  Proof. reflexivity. Qed.

  Lemma decorate_remove r servers :
    decorate hash key (remove bytes_eq_dec r servers)
    = filter (fun p => if bytes_eq_dec r (snd p) then false else true) (decorate hash key servers).
  Proof.
    unfold decorate. induction servers as [|a l IH]; cbn [remove map filter snd]; [reflexivity|].
    destruct (bytes_eq_dec r a); cbn [map]; now rewrite IH.
  Qed.

  (* the pair-sorting formulation equals "sort the servers by score" *)
  Lemma rv_simple servers k : rv hash key servers k = firstn k (sort_on sc servers).
  Proof.
    unfold rv, rv_of_scored, decorate.
    rewrite (sort_on_map sc fst (fun s => (sc s, s))) by reflexivity.
    rewrite firstn_map, map_map. cbn. apply map_id.
  Qed.

  Lemma rv_length servers k : length (rv hash key servers k) = Nat.min k (length servers).
  Proof.
    rewrite rv_simple, firstn_length. f_equal. apply Permutation_length, sort_on_perm.
  Qed.

  Lemma rv_min servers k n :
    n = Nat.min k (length servers) -> rv hash key servers n = rv hash key servers k.
  Proof.
    intros ->. rewrite !rv_simple, <- (Permutation_length (sort_on_perm sc servers)).
    now rewrite <- firstn_firstn, firstn_all.
  Qed.

  Lemma owner_hd servers : owner hash key servers = hd_error (sort_on sc servers).
  Proof. unfold owner. rewrite rv_simple. now destruct (sort_on sc servers). Qed.

  Lemma owner_some_argmin servers o :
    owner hash key servers = Some o -> In o servers /\ forall s, In s servers -> sc o <= sc s.
  Proof.
    rewrite owner_hd. destruct (sort_on sc servers) as [|x r] eqn:E; cbn; [discriminate|].
    intros H; inversion H; subst. exact (sort_on_head_min sc servers o r E).
  Qed.

  Lemma owner_none servers : owner hash key servers = None <-> servers = [].
  Proof.
    rewrite owner_hd. split.
    - destruct (sort_on sc servers) eqn:E; cbn; [intros _; exact (sort_on_nil sc servers E)|discriminate].
    - intros ->. reflexivity.
  Qed.

  Lemma owner_exists servers : servers <> [] -> exists o, owner hash key servers = Some o.
  Proof.
    intros Hne. destruct (owner hash key servers) eqn:E; [eauto|].
    apply owner_none in E. contradiction.
  Qed.

  (* with distinct scores the owner is characterised by minimality alone *)
  Lemma owner_char servers o :
    NoDup (map sc servers) -> In o servers -> (forall s, In s servers -> sc o <= sc s) ->
    owner hash key servers = Some o.
  Proof.
    intros Hnd Hin Hmin.
    destruct (owner_exists servers) as [o' E]; [intros ->; contradiction|].
    rewrite E. f_equal. destruct (owner_some_argmin servers o' E) as [Hin' Hmin'].
    apply (NoDup_map_inj sc servers); auto. apply N.le_antisymm; auto.
  Qed.

  (* Minimal disruption in one statement: a key keeps its owner in every sub-collection
     of the servers that still holds the owner.  Removing a server is the step from
     [servers] to [servers']; adding one is the same step read backwards. *)
  Lemma owner_subset servers servers' :
    incl servers' servers -> NoDup (map sc servers') ->
    (forall o, owner hash key servers = Some o -> In o servers') ->
    owner hash key servers' = owner hash key servers.
  Proof.
    intros Hi Hnd Ho. destruct (owner hash key servers) as [o|] eqn:E.
    - destruct (owner_some_argmin servers o E) as [_ Hmin]. apply owner_char; auto.
    - apply owner_none in E. subst servers. apply owner_none.
      destruct servers' as [|x l]; [reflexivity|]. destruct (Hi x). now left.
  Qed.

  Lemma owner_add servers servers' new :
    Permutation servers' (new :: servers) -> NoDup (map sc servers') ->
    owner hash key servers' = Some new \/ owner hash key servers' = owner hash key servers.
  Proof.
    intros P Hnd.
    destruct (owner_exists servers') as [o E]; [intros ->; apply Permutation_nil in P; discriminate|].
    destruct (owner_some_argmin servers' o E) as [Hin _]. apply (Permutation_in _ P) in Hin.
    destruct Hin as [<-|Hin]; [now left|right; symmetry]. apply owner_subset.
    - intros s Hs. apply (Permutation_in _ (Permutation_sym P)). now right.
    - apply (Permutation_map sc), Permutation_NoDup in P; [|exact Hnd]. now inversion P.
    - intros o' E'. congruence.
  Qed.
End Rendezvous.

Lemma w64_mod x : w64 x = x mod 2 ^ 64.
Proof. unfold w64. change mask64 with (N.ones 64). apply N.land_ones. Qed.

Lemma w64_lt x : w64 x < 2 ^ 64.
Proof. rewrite w64_mod. apply N.mod_lt. discriminate. Qed.

Lemma rotl_lt r x : rotl r x < 2 ^ 64.
Proof. apply w64_lt. Qed.

(* a 64-bit word is a number without bits from position 64 on; xor and right
   shift act bit by bit *)
Lemma lt64_shiftr x : x < 2 ^ 64 <-> N.shiftr x 64 = 0.
Proof. rewrite N.shiftr_div_pow2. symmetry. apply N.div_small_iff. discriminate. Qed.

Lemma lxor_lt64 a b : a < 2 ^ 64 -> b < 2 ^ 64 -> N.lxor a b < 2 ^ 64.
Proof. rewrite !lt64_shiftr, N.shiftr_lxor. now intros -> ->. Qed.

Lemma shiftr_lt64 a n : a < 2 ^ 64 -> N.shiftr a n < 2 ^ 64.
Proof.
  rewrite !lt64_shiftr, N.shiftr_shiftr, N.add_comm, <- N.shiftr_shiftr.
  intros ->. apply N.shiftr_0_l.
Qed.

Lemma xxh64_lt b : xxh64 b < 2 ^ 64.
Proof.
  unfold xxh64.
  destruct (if (32 <=? length b)%nat then _ else _) as [h0 rest].
  destruct (tail8 _ _ _) as [h2 rest2]. destruct (tail4 _ _) as [h3 rest3].
  unfold avalanche. apply lxor_lt64; [apply w64_lt|apply shiftr_lt64, w64_lt].
Qed.

Lemma memN_spec x l : memN x l = true <-> In x l.
Proof. exact (mem_by_In N.eqb_eq x l). Qed.

Lemma nodupN_sound l : nodupN l = true -> NoDup l.
Proof. apply (nodup_by_NoDup memN_spec). Qed.

Lemma lbeq_eq a b : lbeq a b = true <-> a = b.
Proof.
  revert b; induction a as [|x a IH]; intros [|y b]; cbn [lbeq]; try (split; congruence).
  rewrite andb_true_iff, N.eqb_eq, IH. split; [intros [-> ->]; reflexivity|intros H; inversion H; auto].
Qed.

Lemma take_out_perm s l h r : take_out s l = Some (h, r) -> Permutation l ((h, s) :: r).
Proof.
  revert h r; induction l as [|[h0 t] l IH]; intros h r; cbn [take_out]; [discriminate|].
  destruct (lbeq s t) eqn:E.
  - apply lbeq_eq in E. subst t. intros H; inversion H; subst. reflexivity.
  - destruct (take_out s l) as [[h' r']|]; [|discriminate].
    intros H; inversion H; subst. rewrite (IH h r' eq_refl). apply perm_swap.
Qed.

(* an accepted observation is the head of some sorted arrangement of the scored
   servers: the servers taken out, in order, followed by the sorted rest *)
Lemma sel_ok_out obs : forall rest last, sel_ok obs rest last = true ->
  exists out, Permutation out rest /\ Sorted (le_on fst) out /\
    Forall (fun p => last <= fst p) out /\ map snd (firstn (length obs) out) = obs.
Proof.
  induction obs as [|o obs IH]; intros rest last; cbn [sel_ok].
  - intros H. exists (sort_on fst rest).
    split; [apply sort_on_perm|]. split; [apply sort_on_sorted|]. split; [|reflexivity].
    apply (Permutation_Forall (Permutation_sym (sort_on_perm fst rest))), Forall_forall.
    intros p Hp. rewrite forallb_forall in H. now apply N.leb_le, H.
  - destruct (take_out o rest) as [[h rest']|] eqn:Et; [|discriminate].
    rewrite andb_true_iff, N.leb_le. intros [Hle Hs].
    destruct (IH rest' h Hs) as (out & Hp & Hsorted & Hall & Hm).
    exists ((h, o) :: out). split; [rewrite (take_out_perm o rest h rest' Et); now constructor|].
    split; [constructor; [exact Hsorted|]; destruct Hall; now constructor|].
    split; [|cbn; now rewrite Hm].
    constructor; [exact Hle|]. apply (Forall_impl _ (fun p => N.le_trans _ _ _ Hle) Hall).
Qed.

(* placement call sites (coq/RoutingSites.v, regenerated from cluster/*.go on every run) *)
From Semadb Require RoutingSites.

(* what a call site of the checked shape computes: hd (RendezvousHash key c.Servers 1) *)
Definition site_owner (site : String.string * String.string * RoutingSites.key_kind * String.string)
           (hash : bytes -> N) (key : bytes) (servers : list bytes) : option bytes :=
  owner hash key servers.
