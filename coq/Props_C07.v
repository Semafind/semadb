(* Props_C07.v -- property C07: a write batch is all-or-nothing under rejection,
   storage faults and crashes.  Statements; the proofs are lemmas of Proofs_C07.v
   or short derivations from them.

   Model (Model_C07.v): the committed buckets `disk`, the overlay of the running
   write transaction (bbolt Update: an error of the callback drops it, nil
   installs it atomically), the shared caches of cache.Manager (the cache named
   c holds a lazily loaded partial copy of bucket c), a batch = any list of
   operations Get / Put / Del / Scan / CGet / CPut each of which may depend on
   everything read before.  `run_tx fault linger crash p st`: the fault-th
   failable operation returns an error (Get cannot fail in the diskstore
   interface; failing cache creation = failing CPut / CGet = index
   construction), up to `linger` operations of other goroutines of the batch
   still execute inside the transaction before the callback returns, the
   process is killed at the k-th operation / before / right after the commit.
   `observe st q`: q is an ADAPTIVE list of reads (point reads through the
   registered cache when there is a usable one, scans on the committed
   buckets).  `unchanged st d' cs'`: d' is the old file, the caches are
   coherent, and every query answers as before on the running instance (warm)
   and on a fresh instance over the file (cold).

   Quantifiers: every state with coherent caches, every batch program, every
   fault position, every number of lingering operations, every crash point,
   every query. *)
From Coq Require Import List NArith ZArith Bool Arith.
From Semadb Require Import Bytes Value Obs KeyLayout Model_C01 Model_C07 Proofs_C07.
Import ListNotations.

(* a storage fault at any failable operation: as if the batch had never been issued *)
Theorem c07_fault_atomic :
  forall (st : state) (p : prog) (k linger : nat), coh st ->
    match run_tx (Some k) linger None p st with
    | Aborted d' cs' => unchanged st d' cs'                                (* the fault fired *)
    | Committed d' cs' => run_tx None linger None p st = Committed d' cs'   (* the batch has fewer than k+1 failable operations *)
    | Crashed _ => False
    end.
Proof.
  intros st p k linger Hc.
  destruct (run_tx_cases (Some k) linger None p st) as [(t & F & ->)|[(k' & [=] & _)|R]].
  - now apply abort_unchanged.
  - rewrite (run_tx_done _ _ None _ _ R). apply (run_tx_done None linger None), run_ops_none.
Qed.
Print Assumptions c07_fault_atomic.

(* the fault fires for every k below the number of failable operations of the batch *)
Theorem c07_fault_fires :
  forall (st : state) (p : prog) (k linger : nat),
    (k < count_failable (fst st) p (tx0 (snd st)))%nat ->
    exists d' cs', run_tx (Some k) linger None p st = Aborted d' cs'.
Proof.
  intros st p k linger Hk.
  destruct (run_tx_cases (Some k) linger None p st) as [(t & _ & E)|[(k' & [=] & _)|R]].
  - eexists _, _. exact E.
  - apply fault_fires in Hk as (t' & r & c' & R'). cbn [crash_at] in R. congruence.
Qed.
Print Assumptions c07_fault_fires.

(* whatever made the call report an error (any fault position, with or without a pending kill) *)
Theorem c07_error_unchanged :
  forall (st : state) (p : prog) (fault : option nat) (linger : nat) (crash : option crashpt) (d' : disk) (cs' : caches),
    coh st -> run_tx fault linger crash p st = Aborted d' cs' -> unchanged st d' cs'.
Proof. exact aborted_unchanged. Qed.
Print Assumptions c07_error_unchanged.

(* process death: the reopened file is the old state, or the new one only past the commit point *)
Theorem c07_crash_atomic :
  forall (st : state) (p : prog) (fault : option nat) (linger : nat) (cp : crashpt) (file : disk), coh st ->
    run_tx fault linger (Some cp) p st = Crashed file ->
    match cp with
    | AfterCommit =>
        exists d' cs', run_tx fault linger None p st = Committed d' cs' /\ file = d' /\
                       forall q, observe (recover file) q = observe (cold (d', cs')) q
    | _ => file = fst st /\ forall q, observe (recover file) q = observe st q
    end.
Proof.
  intros st p fault linger cp file Hc H. apply crash_file in H.
  destruct cp; [subst; split; [reflexivity|intros q; apply (observe_cold st q Hc)]..|].
  eexists _, _. split; [exact H|]. now split.
Qed.
Print Assumptions c07_crash_atomic.

Theorem c07_crash_old_or_new :
  forall (st : state) (p : prog) (fault : option nat) (linger : nat) (cp : crashpt) (file : disk), coh st ->
    run_tx fault linger (Some cp) p st = Crashed file ->
    file = fst st \/
    (cp = AfterCommit /\ exists cs', run_tx fault linger None p st = Committed file cs').
Proof.
  intros st p fault linger cp file _ H. apply crash_file in H. destruct cp; [now left..|right]. eauto.
Qed.
Print Assumptions c07_crash_old_or_new.

(* success: all effects are visible, warm and cold *)
Theorem c07_success_visible :
  forall (st : state) (p : prog) (fault : option nat) (linger : nat) (crash : option crashpt) (d' : disk) (cs' : caches),
    coh st -> mirrors p st ->
    run_tx fault linger crash p st = Committed d' cs' ->
    d' = materialize (fst st) (tx_writes p st) /\
    (forall b k, d_get d' b k = match ov_find b k (tx_writes p st) with
                                | Some o => o                    (* the batch's latest write to (b,k) *)
                                | None => d_get (fst st) b k     (* untouched *)
                                end) /\
    coh (d', cs') /\
    (forall q, observe (d', cs') q = observe (recover d') q).
Proof.
  intros st p fault linger crash d' cs' Hc M H. apply committed_is_final in H as [-> ->].
  pose proof (coh_commit st p Hc M) as C.
  split; [reflexivity|]. split; [intros b k; apply materialize_get|]. split; [exact C|].
  intros q. symmetry. apply (observe_cold _ q C).
Qed.
Print Assumptions c07_success_visible.

Theorem c07_crash_after_commit_visible :
  forall (st : state) (p : prog) (fault : option nat) (linger : nat) (file : disk), coh st -> mirrors p st ->
    run_tx fault linger (Some AfterCommit) p st = Crashed file ->
    exists cs', run_tx fault linger None p st = Committed file cs' /\
                forall q, observe (recover file) q = observe (file, cs') q.
Proof.
  intros st p fault linger file Hc M H. apply crash_file in H.
  eexists. split; [exact H|]. intros q. symmetry. now apply (c07_success_visible _ _ _ _ _ _ _ Hc M H).
Qed.
Print Assumptions c07_crash_after_commit_visible.

(* `mirrors` is implied by a discipline that is checked operation by operation: write-through
   (CPut c k o immediately followed by the bucket write of the same entry; other bucket writes
   only to buckets without a usable shared cache and not opened by the transaction) *)
Theorem c07_write_through_mirrors :
  forall (st : state) (p : prog), coh st ->
    write_through (snd st) (fst st) p (tx0 (snd st)) = true -> mirrors p st.
Proof. exact write_through_mirrors. Qed.
Print Assumptions c07_write_through_mirrors.

Theorem c07_success_visible_write_through :
  forall (st : state) (p : prog) (fault : option nat) (linger : nat) (crash : option crashpt) (d' : disk) (cs' : caches),
    coh st -> write_through (snd st) (fst st) p (tx0 (snd st)) = true ->
    run_tx fault linger crash p st = Committed d' cs' ->
    d' = materialize (fst st) (tx_writes p st) /\
    coh (d', cs') /\
    (forall q, observe (d', cs') q = observe (recover d') q).
Proof.
  intros st p fault linger crash d' cs' Hc W H.
  destruct (c07_success_visible _ _ _ _ _ _ _ Hc (write_through_mirrors st p Hc W) H) as (A & _ & C & D). auto.
Qed.
Print Assumptions c07_success_visible_write_through.

(* a coherent warm instance and a cold one are indistinguishable *)
Theorem c07_warm_is_cold :
  forall (st : state) (q : query), coh st -> observe (cold st) q = observe st q.
Proof. exact observe_cold. Qed.
Print Assumptions c07_warm_is_cold.

(* validation rejections (reference spec of C01) are failures before commit *)
Theorem c07_rejections :
  forall (sc : schema) (maxsize : N) (b : batch) (s : store) (es : list N)
         (compile : batch -> prog) (k : nat) (st : state), coh st ->
    snd (apply_spec sc maxsize b s) = SErr es ->
    es <> [] /\ (forall e, In e es -> In e [ERR_DUP; ERR_EXISTS; ERR_SIZE; ERR_TYPE]) /\
    fst (apply_spec sc maxsize b s) = s /\
    exists cs', run_batch sc maxsize b s compile k st = Aborted (fst st) cs' /\ unchanged st (fst st) cs'.
Proof. exact rejections. Qed.
Print Assumptions c07_rejections.

(* "rejected => as if never issued", for each of the four rejection kinds *)
Theorem c07_rejected_kind :
  forall (sc : schema) (maxsize : N) (b : batch) (s : store) (es : list N) (kind : N)
         (compile : batch -> prog) (k : nat) (st : state), coh st ->
    In kind [ERR_DUP; ERR_EXISTS; ERR_SIZE; ERR_TYPE] ->
    snd (apply_spec sc maxsize b s) = SErr es -> In kind es ->
    fst (apply_spec sc maxsize b s) = s /\
    exists cs', run_batch sc maxsize b s compile k st = Aborted (fst st) cs' /\ unchanged st (fst st) cs'.
Proof. intros sc maxsize b s es kind compile k st Hc _ H _. now apply (rejections sc maxsize b s es compile k st Hc H). Qed.
Print Assumptions c07_rejected_kind.

(* goroutines of the batch that are still running after the callback returned:
   with the txGuard of diskstore/bbolt.go and the done flag of cache.Transaction every one of
   their operations is refused: nothing changes and the next transaction runs normally *)
Theorem c07_straggler_harmless :
  forall (st : state) (p : prog) (fault : option nat) (linger : nat) (crash : option crashpt)
         (s : sys) (ops : list op) (p2 : prog),
    sys_after (run_tx fault linger crash p st) = Some s ->
    straggle true s ops = s /\
    next_tx (straggle true s ops) p2 = Ran (run_tx None 0 None p2 (y_disk s, y_caches s)).
Proof.
  intros st p fault linger crash s ops p2 H.
  assert (y_done s = true /\ y_locked s = [] /\ y_alive s = true) as (D & L & A)
    by (destruct (run_tx fault linger crash p st); try discriminate; now injection H as <-).
  rewrite (straggle_fixed s ops D). split; [reflexivity|].
  unfold next_tx. rewrite A, L. cbn [negb mem existsb]. induction (rev _) as [|c r IH]; [reflexivity|exact IH].
Qed.
Print Assumptions c07_straggler_harmless.

Theorem c07_fault_then_stragglers :
  forall (st : state) (p : prog) (fault : option nat) (linger : nat) (crash : option crashpt)
         (d' : disk) (cs' : caches) (ops : list op), coh st ->
    run_tx fault linger crash p st = Aborted d' cs' ->
    exists s, sys_after (Aborted d' cs') = Some s /\
      let s' := straggle true s ops in
      y_alive s' = true /\ y_locked s' = [] /\ unchanged st (y_disk s') (y_caches s').
Proof.
  intros st p fault linger crash d' cs' ops Hc H. eexists. split; [reflexivity|]. cbv zeta.
  rewrite straggle_fixed by reflexivity. cbn [y_alive y_locked y_disk y_caches].
  split; [reflexivity|]. split; [reflexivity|]. now apply (aborted_unchanged st p fault linger crash).
Qed.
Print Assumptions c07_fault_then_stragglers.

(* the in-memory backend behaves like bbolt on batches that succeed *)
Theorem c07_memstore_success :
  forall (st : state) (p : prog) (fault : option nat) (linger : nat) (d' : disk) (cs' : caches),
    run_tx_mem fault linger p st = Committed d' cs' <-> run_tx fault linger None p st = Committed d' cs'.
Proof.
  intros st p fault linger d' cs'. unfold run_tx_mem, run_tx. cbn [crash_at].
  destruct (run_ops (fst st) fault None p (tx0 (snd st))) as [t|t r c'|]; [reflexivity| |split; discriminate].
  destruct (run_ops (fst st) None c' (firstn linger r) t); split; discriminate.
Qed.
Print Assumptions c07_memstore_success.

(* the boolean checkers used by the examples *)
Theorem c07_cohb_sound : forall st : state, cohb st = true -> coh st.
Proof. exact cohb_sound. Qed.
Print Assumptions c07_cohb_sound.
Theorem c07_mirrorsb_sound : forall (p : prog) (st : state), mirrorsb p st = true -> mirrors p st.
Proof. intros p st. apply mirrors_finalb_sound. Qed.
Print Assumptions c07_mirrorsb_sound.

Open Scope N_scope.
(* bucket "a" has a shared cache (a graph bucket), bucket "p" has none (the points bucket) *)
Definition bA : name := [97].
Definition bP : name := [112].
Definition ex_disk : disk := [(bA, [([1], [10]); ([2], [20])]); (bP, [([1], [100])])].
Definition ex_caches : caches := [(bA, ([([1], Some [10]); ([9], None)], false))].   (* holds key 1, knows 9 is absent *)
Definition ex_st : state := (ex_disk, ex_caches).
Definition first_val (v : view) : val := match rev v with RVal (Some x) :: _ => x | _ => [] end.
(* the value written depends on what was read; cache writes are flushed to the bucket *)
Definition ex_prog : prog :=
  [ fun _ => Get bP [1];
    fun _ => CGet bA [1];
    fun v => CPut bA [2] (Some (first_val v ++ [1]));
    fun v => Put bA [2] (first_val v ++ [1]);
    fun _ => Put bP [3] [33];
    fun _ => CPut bA [1] None;
    fun _ => Del bA [1];
    fun _ => Scan bP ].
(* an adaptive query: the last read uses the first key of the preceding scan *)
Definition ex_q : query :=
  [ fun _ => RGet bA [2]; fun _ => RGet bA [1]; fun _ => RScan bP;
    fun v => RGet bP (match v with RList ((k, _) :: _) :: _ => k | _ => [] end) ].

Example c07_example_hyps :
  coh ex_st /\ mirrors ex_prog ex_st /\ count_failable ex_disk ex_prog (tx0 ex_caches) = 7%nat /\
  write_through ex_caches ex_disk ex_prog (tx0 ex_caches) = true.
Proof.
  split; [apply cohb_sound; vm_compute; reflexivity|].
  split; [apply c07_mirrorsb_sound; vm_compute; reflexivity|]. vm_compute. split; reflexivity.
Qed.

(* a batch that writes the cached bucket behind the cache's back is not disciplined, and indeed
   leaves the shared cache stale after its commit (this is what `mirrors` excludes) *)
Example c07_example_undisciplined :
  let p := [fun _ : view => Put bA [1] [11]] in
  write_through ex_caches ex_disk p (tx0 ex_caches) = false /\ mirrorsb p ex_st = false /\
  exists d cs, run_tx None 0 None p ex_st = Committed d cs /\ cohb (d, cs) = false /\
               observe (d, cs) [fun _ => RGet bA [1]] <> observe (recover d) [fun _ => RGet bA [1]].
Proof.
  cbv zeta. split; [vm_compute; reflexivity|]. split; [vm_compute; reflexivity|].
  eexists. eexists. split; [vm_compute; reflexivity|]. split; [vm_compute; reflexivity|].
  vm_compute. discriminate.
Qed.

(* every fault position aborts (the shared cache survives only when it was not touched yet);
   position 7 is past the last failable operation: the batch commits *)
Example c07_example_faults :
  run_tx (Some 0%nat) 0 None ex_prog ex_st = Aborted ex_disk ex_caches /\
  map (fun k => run_tx (Some k) 1 None ex_prog ex_st) (seq 0 7) = repeat (Aborted ex_disk []) 7 /\
  run_tx (Some 7%nat) 1 None ex_prog ex_st =
    Committed [(bA, [([2], [100; 1])]); (bP, [([3], [33]); ([1], [100])])]
              [(bA, ([([1], None); ([2], Some [100; 1]); ([9], None)], false))] /\
  observe ex_st ex_q = [RVal (Some [100]); RList [([1], [100])]; RVal (Some [10]); RVal (Some [20])].
Proof. vm_compute. repeat split; reflexivity. Qed.

(* after the commit every effect is visible, warm and cold *)
Example c07_example_success :
  exists d cs, run_tx None 0 None ex_prog ex_st = Committed d cs /\
    observe (d, cs) ex_q = [RVal (Some [33]); RList [([3], [33]); ([1], [100])]; RVal None; RVal (Some [100; 1])] /\
    observe (recover d) ex_q = observe (d, cs) ex_q.
Proof. eexists. eexists. vm_compute. repeat split; reflexivity. Qed.

(* kills: at the 5th operation and before commit the file is the old one, right after commit the new one *)
Example c07_example_crashes :
  run_tx None 0 (Some (AtOp 5)) ex_prog ex_st = Crashed ex_disk /\
  run_tx None 0 (Some BeforeCommit) ex_prog ex_st = Crashed ex_disk /\
  run_tx None 0 (Some AfterCommit) ex_prog ex_st =
    Crashed [(bA, [([2], [100; 1])]); (bP, [([3], [33]); ([1], [100])])] /\
  run_tx (Some 2%nat) 3 (Some (AtOp 5)) ex_prog ex_st = Crashed ex_disk.   (* killed while other goroutines linger after a fault *)
Proof. vm_compute. repeat split; reflexivity. Qed.

(* the four rejection kinds of the reference spec *)
Definition ua : uuid := repeat 1 16.
Definition kx : bytes := [120].
Example c07_example_rejections :
  snd (apply_spec [] 1000 (BInsert [(ua, []); (ua, [])]) []) = SErr [ERR_DUP] /\
  snd (apply_spec [] 1000 (BInsert [(ua, [])]) [(ua, [])]) = SErr [ERR_EXISTS] /\
  snd (apply_spec [] 0 (BUpdate [(ua, [(kx, VInt 1%Z)])]) [(ua, [])]) = SErr [ERR_SIZE] /\
  snd (apply_spec [(kx, IInt)] 1000 (BInsert [(ua, [(kx, VStr [104])])]) []) = SErr [ERR_TYPE] /\
  run_batch [] 1000 (BInsert [(ua, [])]) [(ua, [])] (fun _ => ex_prog) 5 ex_st = Aborted ex_disk [].
Proof. vm_compute. repeat split; reflexivity. Qed.

(* refutation for the pinned tree (no txGuard, no done flag):
   the batch fails at its 3rd failable operation; a goroutine of the batch that is still running
   after the callback returned (a) takes write access to the graph cache, or (b) writes through
   the bucket of the closed bbolt transaction.  The next batch (a) blocks forever on the cache
   lock, (b) runs in a process whose memory was corrupted / that was killed by SIGSEGV.  With
   the two fix commits the same schedules are harmless. *)
Theorem c07_straggler_refuted_v0 :
  exists (st : state) (p p2 : prog) (k : nat) (d' : disk) (cs' : caches) (s : sys) (ops1 ops2 : list op),
    coh st /\ run_tx (Some k) 0 None p st = Aborted d' cs' /\ sys_after (Aborted d' cs') = Some s /\
    (exists c, next_tx (straggle false s ops1) p2 = Blocked c) /\
    next_tx (straggle false s ops2) p2 = Dead /\
    (exists d2 cs2, next_tx (straggle true s ops1) p2 = Ran (Committed d2 cs2)) /\
    (exists d2 cs2, next_tx (straggle true s ops2) p2 = Ran (Committed d2 cs2)).
Proof.
  exists ex_st, ex_prog, ex_prog, 2%nat, ex_disk, [], (mkSys ex_disk [] true [] true),
         [CPut bA [2] (Some [7])], [Put bA [2] [7]].
  split; [apply cohb_sound; vm_compute; reflexivity|].
  split; [vm_compute; reflexivity|]. split; [reflexivity|].
  split; [exists bA; vm_compute; reflexivity|]. split; [vm_compute; reflexivity|].
  split; eexists; eexists; vm_compute; reflexivity.
Qed.
Print Assumptions c07_straggler_refuted_v0.

(* refutation: the in-memory backend has no rollback.
   The batch fails at the Put into the points bucket after it wrote the graph bucket: bbolt
   leaves the old state, the in-memory store keeps the partial write and the next read sees it *)
Theorem c07_memstore_refuted :
  exists (st : state) (p : prog) (k : nat) (d' : disk) (cs' : caches) (q : query),
    coh st /\ run_tx_mem (Some k) 0 p st = Aborted d' cs' /\
    observe (d', cs') q <> observe st q /\
    exists cs2, run_tx (Some k) 0 None p st = Aborted (fst st) cs2 /\ observe (fst st, cs2) q = observe st q.
Proof.
  exists ex_st, ex_prog, 3%nat, [(bA, [([2], [100; 1]); ([1], [10])]); (bP, [([1], [100])])], [], ex_q.
  split; [apply cohb_sound; vm_compute; reflexivity|].
  split; [vm_compute; reflexivity|]. split; [vm_compute; discriminate|].
  exists []. split; vm_compute; reflexivity.
Qed.
Print Assumptions c07_memstore_refuted.
