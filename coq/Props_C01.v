(* Props_C01.v -- property C01: stored points follow the documented insert /
   update / delete semantics.  Statements; the proofs are lemmas of Proofs_C01.v
   or short derivations from them.

   S = the plain-map reference spec of Model_C01.v (insert_spec / update_spec /
   delete_spec / apply_spec, runS); M = the bucket-level mechanism model of
   Model_C01M.v (runM; the node ids the allocator hands out are an input,
   checked for legality).  Quantifiers: every index schema, every size limit,
   every finite history of batches (any ids, any documents), every resolution
   of the node-id choices. *)
From Coq Require Import List NArith ZArith Bool.
From Semadb Require Import Bytes U64 Value Obs KeyLayout Model_C19 Model_C01 Model_C01M Proofs_C01.
Import ListNotations.
Open Scope N_scope.

(* M refines S: after every run the store that M's buckets represent (abs) holds the same ids and the
   same documents as S's store, and the outputs are equal batch by batch *)
Theorem c01_refines :
  forall (sc : schema) (maxsize : N) (h : list batch) (css : list (list N)) (m : mstate) (outs : list sout),
    runM sc maxsize h css m_init = Some (m, outs) ->
    store_same (abs m) (fst (runS sc maxsize h [])) /\
    store_equiv (abs m) (fst (runS sc maxsize h [])) /\
    outs = snd (runS sc maxsize h []).
Proof. exact refines. Qed.
Print Assumptions c01_refines.

(* and the point counter M keeps is the size of S's store *)
Theorem c01_count :
  forall (sc : schema) (maxsize : N) (h : list batch) (css : list (list N)) (m : mstate) (outs : list sout),
    runM sc maxsize h css m_init = Some (m, outs) ->
    count m = N.of_nat (length (fst (runS sc maxsize h []))).
Proof. intros sc maxsize h css m outs H. apply (run_sim _ _ _ _ _ _ _ _ SimM_init) in H as [_ HS]. apply HS. Qed.
Print Assumptions c01_count.

(* the same in terms of the boolean the correspondence run uses (store_eqb: equal id sets, doc_eqb documents),
   for histories whose documents have unique keys (decoded msgpack maps) *)
Theorem c01_refines_eqb :
  forall (sc : schema) (maxsize : N) (h : list batch) (css : list (list N)) (m : mstate) (outs : list sout),
    hist_wf h -> runM sc maxsize h css m_init = Some (m, outs) ->
    store_eqb (abs m) (fst (runS sc maxsize h [])) = true.
Proof. exact refines_eqb. Qed.
Print Assumptions c01_refines_eqb.

(* reads by id: GetPointByUUID on M's bucket = the document abs / S hold *)
Theorem c01_reads :
  forall (sc : schema) (maxsize : N) (m : mstate), reachable sc maxsize m ->
    forall u, lookup (pts m) u = st_get u (abs m).
Proof. exact reads. Qed.
Print Assumptions c01_reads.

Theorem c01_inv : forall (sc : schema) (maxsize : N) (m : mstate), reachable sc maxsize m -> InvM m.
Proof. intros sc maxsize m H. apply reachable_sim in H as [s HS]. exact (SimM_inv m s HS). Qed.
Print Assumptions c01_inv.

(* a rejected batch leaves M, hence abs, unchanged *)
Theorem c01_failed_batch_noop :
  forall (sc : schema) (maxsize : N) (b : batch) (cs : list N) (m m' : mstate) (es : list N),
    m_apply sc maxsize b cs m = Some (m', SErr es) -> m' = m /\ abs m' = abs m.
Proof. intros sc maxsize b cs m m' es H. apply failed_batch_noop in H as ->. now split. Qed.
Print Assumptions c01_failed_batch_noop.

(* the allocator can always proceed (runM is not vacuously None) *)
Theorem c01_choice_exists :
  forall (sc : schema) (maxsize : N) (b : batch) (m : mstate),
    nextfree m + batch_points b < two64 -> exists cs, m_apply sc maxsize b cs m <> None.
Proof.
  intros sc maxsize b m H. destruct (apply_ok sc maxsize b m H) as (cs & m' & o & E & _).
  exists cs. now rewrite E.
Qed.
Print Assumptions c01_choice_exists.

Theorem c01_run_exists :
  forall (sc : schema) (maxsize : N) (h : list batch),
    first_node_id + hist_points h < two64 ->
    exists css m outs, runM sc maxsize h css m_init = Some (m, outs).
Proof. intros sc maxsize h H. exact (run_exists sc maxsize h m_init H). Qed.
Print Assumptions c01_run_exists.

(* an insert is rejected as a whole iff an id repeats, an id is stored already,
   or a document is ill-typed for the schema; otherwise it adds exactly the batch *)
Theorem c01_spec_insert_rejects :
  forall (sc : schema) (ps : list (uuid * doc)) (s : store),
    (insert_bad sc ps s -> exists es, es <> [] /\ insert_spec sc ps s = (s, SErr es)) /\
    (~ insert_bad sc ps s ->
       snd (insert_spec sc ps s) = SOk [] /\
       forall id, st_get id (fst (insert_spec sc ps s)) =
                  match st_get id ps with Some d => Some d | None => st_get id s end).
Proof. exact spec_insert_rejects. Qed.
Print Assumptions c01_spec_insert_rejects.

(* the ids an update reports are exactly the requested ids that existed; no id appears or disappears *)
Theorem c01_spec_update_reports :
  forall (sc : schema) (maxsize : N) (ps : list (uuid * doc)) (s s' : store) (ids : list uuid),
    update_spec sc maxsize ps s = (s', SOk ids) ->
    (forall id, In id ids <-> (In id (map fst ps) /\ st_get id s <> None)) /\
    (forall id, st_get id s' <> None <-> st_get id s <> None).
Proof.
  intros sc maxsize ps s s' ids. unfold update_spec.
  destruct (update_go sc maxsize ps s) as [[s1 ids1] [|]] eqn:E; [|discriminate].
  intros [= <- <-]. exact (update_go_reports _ _ _ _ _ _ _ E).
Qed.
Print Assumptions c01_spec_update_reports.

(* the shallow merge, key by key: "_delete" removes, any other value overwrites, other keys stay *)
Theorem c01_spec_merge :
  forall (inc old : doc) (k : bytes), NoDup (map fst inc) ->
    doc_get k (merge_doc delete_value old inc) =
    match doc_get k inc with Some v => merge_entry delete_value v | None => doc_get k old end.
Proof. intros inc old k H. exact (merge_doc_get delete_value inc old k H). Qed.
Print Assumptions c01_spec_merge.

(* a delete reports exactly the requested ids that existed, removes them, and touches nothing else *)
Theorem c01_spec_delete_reports :
  forall (ids : list uuid) (s s' : store) (known : list uuid),
    delete_spec ids s = (s', SOk known) ->
    NoDup known /\
    (forall id, In id known <-> (In id ids /\ st_get id s <> None)) /\
    (forall id, In id ids -> st_get id s' = None) /\
    (forall id, ~ In id ids -> st_get id s' = st_get id s).
Proof. exact spec_delete_reports. Qed.
Print Assumptions c01_spec_delete_reports.

Theorem c01_spec_rejected_unchanged :
  forall (sc : schema) (maxsize : N) (b : batch) (s : store) (es : list N),
    snd (apply_spec sc maxsize b s) = SErr es -> fst (apply_spec sc maxsize b s) = s.
Proof. intros sc maxsize b s es H. apply (spec_rejected _ _ _ _ _ H). Qed.
Print Assumptions c01_spec_rejected_unchanged.

(* a string or string-array index cannot hold the empty string (the file store refuses the empty key when the
   index is flushed): an insert batch that carries one at an indexed path is rejected as a whole *)
Theorem c01_spec_empty_key_rejected :
  forall (sc : schema) (ps : list (uuid * doc)) (s : store) (p : uuid * doc) (path : bytes) (cs : bool),
    In p ps ->
    (In (path, IStr cs) sc /\ prop_value path (snd p) = QFound (VStr [])) \/
    (In (path, IStrArr cs) sc /\ exists l, prop_value path (snd p) = QFound (VArr l) /\ In (VStr []) l) ->
    exists es, es <> [] /\ insert_spec sc ps s = (s, SErr es).
Proof.
  intros sc ps s p path cs Hp H. apply (proj1 (spec_insert_rejects sc ps s)). right. right. exists p.
  split; [exact Hp|]. destruct H as [[Hin Hpv]|[Hin (l & Hpv & Hl)]]; apply (ill_typed _ _ _ _ _ Hin Hpv); [reflexivity|].
  cbn [type_ok]. apply andb_false_iff. right.
  destruct (forallb key_str l) eqn:E; [|reflexivity]. rewrite forallb_forall in E. now apply E in Hl.
Qed.
Print Assumptions c01_spec_empty_key_rejected.

(* the checker that judges the buckets dumped from the real shard is sound *)
Theorem c01_dump_checker_sound : forall d : dump, dump_inv_b d = true -> DumpInv d.
Proof. exact dump_checker_sound. Qed.
Print Assumptions c01_dump_checker_sound.

Theorem c01_store_equivb_spec : forall a b : store, store_equivb a b = true <-> store_equiv a b.
Proof.
  intros a b. unfold store_equivb, store_equiv. rewrite (ListFacts.forallb_keys bytes_eqb_spec odoc_equivb a b eq_refl).
  split; intros H id; apply odoc_equivb_spec, H.
Qed.
Print Assumptions c01_store_equivb_spec.
Theorem c01_doc_eqb_sound : forall a b : doc, doc_eqb a b = true -> doc_equiv a b.
Proof. exact doc_eqb_sound. Qed.
Print Assumptions c01_doc_eqb_sound.

(* a history with re-insertion of a deleted id, node-id reuse, an empty
   document, a "_delete", a duplicate-id insert, an insert of an existing id,
   an update of an unknown id and a delete of an unknown id; 3 live points at
   the end *)
Definition ua : uuid := repeat 1 16.
Definition ub : uuid := repeat 2 16.
Definition uc : uuid := repeat 3 16.
Definition ud : uuid := repeat 4 16.
Definition kx : bytes := [120].
Definition ky : bytes := [121].
Definition ex_h : list batch :=
  [ BInsert [(ua, [(kx, VInt 1)]); (ub, []); (uc, [(kx, VInt 3); (ky, VStr [104; 105])])];
    BInsert [(ud, []); (ud, [])];                                 (* duplicate id: rejected *)
    BInsert [(ud, []); (ua, [])];                                 (* ua exists: rejected *)
    BDelete [ub; ud];                                             (* ud unknown *)
    BUpdate [(uc, [(ky, VStr delete_value); (kx, VInt 4)]); (ud, [(kx, VInt 9)])];
    BInsert [(ud, [(ky, VBool true)])];                           (* reuses node id 3 *)
    BDelete [ua];
    BInsert [(ua, []); (ub, [(kx, VNil)])];                       (* re-insertion; ids 2 and 5 *)
    BDelete [uc] ].
Definition ex_css : list (list N) := [[2; 3; 4]; []; []; []; []; [3]; []; [2; 5]; []].

Example c01_example_run :
  exists m outs,
    runM [] 1000 ex_h ex_css m_init = Some (m, outs) /\
    outs = [SOk []; SErr [ERR_DUP]; SErr [ERR_EXISTS]; SOk [ub]; SOk [uc]; SOk []; SOk [ua]; SOk []; SOk [uc]] /\
    count m = 3 /\ free m = [4] /\ nextfree m = 6 /\
    store_equivb (abs m) [(ua, []); (ub, [(kx, VNil)]); (ud, [(ky, VBool true)])] = true /\
    store_equivb (abs m) (fst (runS [] 1000 ex_h [])) = true.
Proof.
  (* the first conjunct fixes the witnesses; only then are the others closed terms that evaluate *)
  eexists. eexists. split; [vm_compute; reflexivity|]. vm_compute. repeat split; reflexivity.
Qed.

Example c01_example_hist_wf : hist_wf ex_h.
Proof. repeat constructor; cbn; intuition discriminate. Qed.

(* the choice [4] instead of [3] (not the free id) is illegal, and so is a fresh id while the free list is non-empty *)
Example c01_example_illegal_choice :
  runM [] 1000 ex_h [[2; 3; 4]; []; []; []; []; [6]; []; [2; 5]; []] m_init = None /\
  runM [] 1000 ex_h [[2; 3; 4]; []; []; []; []; [4]; []; [2; 5]; []] m_init = None.
Proof. vm_compute. split; reflexivity. Qed.

(* hypotheses of c01_inv / c01_reads: a reachable state with live and free ids *)
Example c01_example_reachable :
  exists m, reachable [] 1000 m /\ length (abs m) = 3%nat /\ free m = [4].
Proof.
  destruct c01_example_run as (m & outs & H & _ & Hc & Hf & _).
  assert (R : reachable [] 1000 m) by now exists ex_h, ex_css, outs.
  exists m. split; [exact R|]. split; [|exact Hf].
  apply Nat2N.inj. rewrite <- (inv_count _ (c01_inv _ _ _ R)). exact Hc.
Qed.

(* hypothesis of c01_failed_batch_noop: an insert of an existing id on a non-empty state *)
Example c01_example_rejected :
  exists m, m_apply [] 1000 (BInsert [(ua, [])]) [] m = Some (m, SErr [ERR_EXISTS]) /\ pts m <> [].
Proof.
  exists (mkM (set_point [] 2 ua []) 1 [] 3). vm_compute. split; [reflexivity|discriminate].
Qed.

(* hypothesis of c01_dump_checker_sound: a dump with two live points and one free id *)
Definition ex_dump : dump :=
  mkDump [(k_uuid 2, ua); (k_uuid 4, ub); (k_node ua, u64_le 2); (k_node ub, u64_le 4)]
         [(k_data 2, []); (k_data 4, [(kx, VInt 1)])]
         [(free_node_ids_key, edges_le [3]); (next_free_node_id_key, u64_le 5); (point_count_key, u64_le 2)].
Example c01_example_dump :
  dump_inv_b ex_dump = true /\ dump_live ex_dump = [2; 4] /\ dump_free ex_dump = [3] /\
  dump_abs ex_dump = [(ua, []); (ub, [(kx, VInt 1)])] /\
  (* and the checker refuses a free id that is live, a missing inverse entry, a wrong count *)
  dump_inv_b (mkDump (d_points ex_dump) (d_docs ex_dump)
                     [(free_node_ids_key, edges_le [4]); (next_free_node_id_key, u64_le 5); (point_count_key, u64_le 2)]) = false /\
  dump_inv_b (mkDump (tl (d_points ex_dump)) (d_docs ex_dump) (d_internal ex_dump)) = false /\
  dump_inv_b (mkDump (d_points ex_dump) (d_docs ex_dump)
                     [(free_node_ids_key, edges_le [3]); (next_free_node_id_key, u64_le 5); (point_count_key, u64_le 3)]) = false.
Proof. vm_compute. repeat split; reflexivity. Qed.

(* hypotheses of c01_spec_insert_rejects, c01_spec_update_reports and c01_spec_delete_reports *)
Example c01_example_spec :
  insert_bad [] [(ua, []); (ua, [])] [] /\
  ~ insert_bad [] [(ua, []); (ub, [])] [] /\
  snd (update_spec [] 1000 [(ua, [(kx, VInt 1)]); (ub, [])] [(ua, [])]) = SOk [ua] /\
  snd (delete_spec [ua; ub; ua] [(ua, [])]) = SOk [ua].
Proof.
  split; [left; intros H; inversion H as [|? ? H1 H2]; apply H1; now left|].
  split; [|split; reflexivity].
  intros [H|[(p & Hp & Hm)|(p & Hp & Hm)]].
  - apply H. repeat constructor; cbn; intuition discriminate.
  - now apply Hm.
  - destruct Hp as [<-|[<-|[]]]; discriminate.
Qed.

(* hypothesis of c01_spec_empty_key_rejected: tags = ["a"; ""] under a string-array index on "tags" *)
Example c01_example_empty_key :
  insert_spec [([116; 97; 103; 115], IStrArr false)] [(ua, [([116; 97; 103; 115], VArr [VStr [97]; VStr []])])] [] = ([], SErr [ERR_TYPE]) /\
  insert_spec [([116; 97; 103; 115], IStrArr false)] [(ua, [([116; 97; 103; 115], VArr [VStr [97]; VStr [98]])])] [] =
    ([(ua, [([116; 97; 103; 115], VArr [VStr [97]; VStr [98]])])], SOk []).
Proof. vm_compute. split; reflexivity. Qed.
