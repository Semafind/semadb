(* ListFacts.v -- what the proofs of several properties need beyond the standard library's List: facts
   about its predicates and functions (NoDup, Permutation, StronglySorted, Forall2, existsb / forallb,
   fold_left, last, firstn / skipn, nth_error, app); membership, duplicate test and de-duplication over a
   boolean test; association lists read through a boolean equality on the keys. *)
From Coq Require Import List Bool PeanoNat NArith Permutation Sorted.
Import ListNotations.

Lemma NoDup_app_iff {A} (a b : list A) :
  NoDup (a ++ b) <-> NoDup a /\ NoDup b /\ forall x, In x a -> ~ In x b.
Proof.
  induction a as [|y a IH]; cbn.
  - split; [intros H; repeat split; [constructor|exact H|intros x []]|intros (_ & H & _); exact H].
  - rewrite !NoDup_cons_iff, IH, in_app_iff. split.
    + intros (Hy & Ha & Hb & Hd). repeat split; auto. intros x [<-|Hx]; auto.
    + intros ((Hy & Ha) & Hb & Hd). repeat split; auto. intros [H|H]; [auto|exact (Hd y (or_introl eq_refl) H)].
Qed.

Lemma NoDup_map_filter {A B} (g : A -> B) (f : A -> bool) l : NoDup (map g l) -> NoDup (map g (filter f l)).
Proof.
  induction l as [|x l IH]; cbn; [constructor|]. rewrite NoDup_cons_iff. intros [Hx Hl].
  destruct (f x); cbn; [|now apply IH]. constructor; [|now apply IH].
  rewrite in_map_iff in *. intros (y & E & Hy). apply filter_In in Hy. apply Hx. exists y. tauto.
Qed.

Lemma NoDup_map_inj {A B} (f : A -> B) l a b : NoDup (map f l) -> In a l -> In b l -> f a = f b -> a = b.
Proof.
  induction l as [|x l IH]; cbn; intros Hnd Ha Hb E; [contradiction|].
  apply NoDup_cons_iff in Hnd as [Hx Hnd].
  destruct Ha as [->|Ha], Hb as [->|Hb]; auto; destruct Hx; [rewrite E|rewrite <- E]; now apply in_map.
Qed.

Lemma Permutation_filter {A} (f : A -> bool) l l' : Permutation l l' -> Permutation (filter f l) (filter f l').
Proof.
  induction 1 as [|x l l' Hp IH|x y l|l l' l'' Hp IH Hp' IH']; cbn.
  - constructor.
  - destruct (f x); [now constructor|assumption].
  - destruct (f x), (f y); try reflexivity. apply perm_swap.
  - now transitivity (filter f l').
Qed.

Lemma StronglySorted_app_iff {A} (R : A -> A -> Prop) l1 l2 :
  StronglySorted R (l1 ++ l2) <->
  StronglySorted R l1 /\ StronglySorted R l2 /\ forall x y, In x l1 -> In y l2 -> R x y.
Proof.
  induction l1 as [|a l1 IH]; cbn.
  - split; [intros H; repeat split; [constructor|exact H|tauto]|tauto].
  - split.
    + intros H. apply StronglySorted_inv in H as [HS HF]. apply IH in HS as (H1 & H2 & H3).
      apply Forall_app in HF as [F1 F2]. repeat split; [now constructor|exact H2|].
      intros x y [<-|Hx] Hy; [|now apply H3]. rewrite Forall_forall in F2. now apply F2.
    + intros (H1 & H2 & H3). apply StronglySorted_inv in H1 as [HS HF]. constructor.
      * apply IH. repeat split; auto.
      * apply Forall_app. split; [exact HF|]. apply Forall_forall. intros y Hy. apply H3; auto.
Qed.

Lemma StronglySorted_rev {A} (R : A -> A -> Prop) l :
  StronglySorted R l -> StronglySorted (fun a b => R b a) (rev l).
Proof.
  induction 1 as [|a l HS IH HF]; cbn; [constructor|].
  apply StronglySorted_app_iff. repeat split; [exact IH|repeat constructor|].
  intros x y Hx [<-|[]]. rewrite Forall_forall in HF. now apply HF, in_rev.
Qed.

Lemma last_In {A} (l : list A) d : l <> [] -> In (last l d) l.
Proof. induction l as [|a [|b r] IH]; [congruence|now left|]. intros _. right. now apply IH. Qed.

Lemma StronglySorted_last {A} (R : A -> A -> Prop) l d :
  (forall x, R x x) -> StronglySorted R l -> forall x, In x l -> R x (last l d).
Proof.
  intros Hr. induction 1 as [|y l Hs IH Hy]; intros x Hin; [contradiction|].
  destruct l as [|z r]; [destruct Hin as [<-|[]]; apply Hr|].
  change (last (y :: z :: r) d) with (last (z :: r) d). destruct Hin as [<-|Hin]; [|now apply IH].
  rewrite Forall_forall in Hy. now apply Hy, last_In.
Qed.

Lemma fold_left_inv {A B} (P : A -> Prop) (f : A -> B -> A) l :
  (forall a b, In b l -> P a -> P (f a b)) -> forall a, P a -> P (fold_left f l a).
Proof.
  induction l as [|b l IH]; cbn; intros H a Ha; [exact Ha|].
  apply IH; [intros; apply H; auto|apply H; auto].
Qed.

Lemma existsb_eqb_In {A} (eqb : A -> A -> bool) :
  (forall a b, eqb a b = true <-> a = b) -> forall x l, existsb (eqb x) l = true <-> In x l.
Proof.
  intros Heq x l. rewrite existsb_exists. split.
  - intros (y & Hy & E). apply Heq in E. now subst.
  - intros H. exists x. split; [assumption|now apply Heq].
Qed.

Lemma existsb_Neqb_In x l : existsb (N.eqb x) l = true <-> In x l.
Proof. apply existsb_eqb_In, N.eqb_eq. Qed.

Lemma existsb_ext {A} (f g : A -> bool) l : (forall x, f x = g x) -> existsb f l = existsb g l.
Proof. intros H. induction l as [|x r IH]; cbn; [reflexivity|]. now rewrite H, IH. Qed.

Lemma existsb_false_In {A} (f : A -> bool) l x : existsb f l = false -> In x l -> f x = false.
Proof.
  intros H Hx. destruct (f x) eqn:E; [|reflexivity].
  rewrite <- H. symmetry. apply existsb_exists. now exists x.
Qed.

Lemma forallb_false_iff {A} (f : A -> bool) l : forallb f l = false <-> exists x, In x l /\ f x = false.
Proof.
  split.
  - induction l as [|x r IH]; cbn; [discriminate|].
    destruct (f x) eqn:E; cbn; [|intros _; exists x; auto].
    intros H. destruct (IH H) as (y & Hy & Ey). exists y. auto.
  - intros (x & Hx & E). apply not_true_iff_false. rewrite forallb_forall. intros H. now rewrite (H x Hx) in E.
Qed.

Lemma Forall2_In_l {A B} (P : A -> B -> Prop) l1 l2 a :
  Forall2 P l1 l2 -> In a l1 -> exists b, In b l2 /\ P a b.
Proof.
  induction 1 as [|x y l1 l2 Hxy HF IH]; intros Hin; [contradiction|].
  destruct Hin as [<-|Hin]; [exists y; split; [now left|assumption]|].
  destruct (IH Hin) as (b & Hb & Hp). exists b. split; [now right|assumption].
Qed.

Lemma app_inj_length {A} (a b c d : list A) : length a = length c -> a ++ b = c ++ d -> a = c /\ b = d.
Proof.
  revert c; induction a as [|x a IH]; intros [|y c] Hl H; try discriminate; [now split|].
  injection Hl as Hl. injection H as -> H. destruct (IH c Hl H) as [-> ->]. now split.
Qed.

Lemma Forall2_nth {A} (P : A -> A -> Prop) l1 l2 :
  length l1 = length l2 -> (forall p d, p < length l1 -> P (nth p l1 d) (nth p l2 d)) -> Forall2 P l1 l2.
Proof.
  revert l2. induction l1 as [|x l1 IH]; intros [|y l2] Hl H; try discriminate; constructor.
  - apply (H 0 x), Nat.lt_0_succ.
  - apply IH; [now injection Hl|]. intros p d Hp. apply (H (S p) d). now apply -> Nat.succ_lt_mono.
Qed.

(* A sorted arrangement is unique up to ties, and so is a sorted choice of the least elements: a sorted list
   pre that stands below every element of rest. *)
Section SortedPrefix.
  Context {A : Type} (R : A -> A -> Prop) (leb : A -> A -> bool).
  Hypothesis R_refl : forall x, R x x.
  Hypothesis R_trans : forall x y z, R x y -> R y z -> R x z.
  Hypothesis leb_R : forall x y, leb x y = true <-> R x y.

  (* The elements of pre ++ rest satisfying a downward-closed f fill pre from the front, so position p of pre
     satisfies f exactly when p is below their number -- and that number is the same in every permutation. *)
  Lemma sorted_prefix_nth_pred (f : A -> bool) pre rest :
    (forall w z, R w z -> f z = true -> f w = true) -> StronglySorted R pre ->
    (forall x y, In x pre -> In y rest -> R x y) ->
    forall p d, p < length pre -> (f (nth p pre d) = true <-> p < length (filter f (pre ++ rest))).
  Proof.
    intros Hf Hs. induction Hs as [|x l _ IH Hall]; intros Hr p d Hp; [inversion Hp|].
    cbn. destruct (f x) eqn:Fx.
    - destruct p; cbn; [split; auto using Nat.lt_0_succ|]. rewrite <- Nat.succ_lt_mono.
      apply IH; [intros y z Hy; apply Hr; now right|now apply Nat.succ_lt_mono].
    - assert (N : forall z, In z (l ++ rest) -> f z = false).
      { intros z Hz. apply not_true_is_false. intros Fz. rewrite (Hf x z) in Fx; [discriminate| |exact Fz].
        apply in_app_or in Hz as [Hz|Hz]; [|apply Hr; [now left|exact Hz]].
        rewrite Forall_forall in Hall. now apply Hall. }
      split; intros H; exfalso.
      + destruct p; [congruence|]. rewrite N in H; [discriminate|].
        apply in_or_app. left. apply nth_In. now apply Nat.succ_lt_mono.
      + destruct (filter f (l ++ rest)) as [|z r] eqn:E; [inversion H|].
        assert (Hz : In z (filter f (l ++ rest))) by (rewrite E; now left).
        apply filter_In in Hz as [Hz Fz]. rewrite (N z Hz) in Fz. discriminate.
  Qed.

  (* pre2's p-th element y has at least p+1 elements <= y before or at it; pre1 ++ rest1 has as many, and they
     come first *)
  Lemma sorted_prefix_le pre1 rest1 pre2 rest2 p d :
    StronglySorted R pre1 -> (forall x y, In x pre1 -> In y rest1 -> R x y) ->
    StronglySorted R pre2 -> (forall x y, In x pre2 -> In y rest2 -> R x y) ->
    Permutation (pre1 ++ rest1) (pre2 ++ rest2) -> p < length pre1 -> p < length pre2 ->
    R (nth p pre1 d) (nth p pre2 d).
  Proof.
    intros S1 D1 S2 D2 Hp H1 H2. set (y := nth p pre2 d).
    assert (Hf : forall w z, R w z -> leb z y = true -> leb w y = true).
    { intros w z Hwz. rewrite !leb_R. now apply R_trans. }
    apply leb_R, (sorted_prefix_nth_pred (fun w => leb w y) pre1 rest1 Hf S1 D1 p d H1).
    rewrite (Permutation_length (Permutation_filter _ _ _ Hp)).
    apply (sorted_prefix_nth_pred _ pre2 rest2 Hf S2 D2 p d H2), leb_R, R_refl.
  Qed.
End SortedPrefix.

(* Membership written as a fixpoint over a boolean equality, and the duplicate-freeness test and the
   de-duplication (the last occurrence stays) written over a membership test.  The models define these at
   several types; each such function is convertible with one of the three below. *)
Section MemBy.
  Context {A : Type} (eqb : A -> A -> bool).
  Hypothesis eqb_eq : forall a b, eqb a b = true <-> a = b.

  Fixpoint mem_by (x : A) (l : list A) : bool :=
    match l with [] => false | y :: r => eqb x y || mem_by x r end.
  Lemma mem_by_In x l : mem_by x l = true <-> In x l.
  Proof.
    induction l as [|y r IH]; cbn; [split; [discriminate|contradiction]|].
    rewrite orb_true_iff, IH, eqb_eq. split; intros [H|H]; auto.
  Qed.
End MemBy.

Section DedupBy.
  Context {A : Type} (mem : A -> list A -> bool).
  Hypothesis mem_In : forall x l, mem x l = true <-> In x l.

  Fixpoint nodup_by (l : list A) : bool :=
    match l with [] => true | x :: r => negb (mem x r) && nodup_by r end.
  Fixpoint dedup_by (l : list A) : list A :=
    match l with [] => [] | x :: r => if mem x r then dedup_by r else x :: dedup_by r end.

  Lemma nodup_by_NoDup l : nodup_by l = true <-> NoDup l.
  Proof.
    induction l as [|x r IH]; cbn; [split; [constructor|reflexivity]|].
    now rewrite andb_true_iff, negb_true_iff, <- not_true_iff_false, mem_In, IH, NoDup_cons_iff.
  Qed.
  Lemma dedup_by_In x l : In x (dedup_by l) <-> In x l.
  Proof.
    induction l as [|y r IH]; cbn; [tauto|].
    destruct (mem y r) eqn:E; cbn; rewrite IH; [|tauto].
    apply mem_In in E. split; [tauto|]. intros [->|H]; assumption.
  Qed.
  Lemma dedup_by_NoDup l : NoDup (dedup_by l).
  Proof.
    induction l as [|y r IH]; cbn; [constructor|].
    destruct (mem y r) eqn:E; [assumption|].
    constructor; [|assumption]. rewrite dedup_by_In, <- mem_In. congruence.
  Qed.
End DedupBy.
Arguments mem_by_In {A eqb} eqb_eq x l.
Arguments nodup_by_NoDup {A mem} mem_In l.
Arguments dedup_by_In {A mem} mem_In x l.
Arguments dedup_by_NoDup {A mem} mem_In l.

Lemma firstn_add {A} (a b : nat) (l : list A) : firstn (a + b) l = firstn a l ++ firstn b (skipn a l).
Proof.
  revert l. induction a as [|a IH]; intros [|x l]; cbn; try reflexivity.
  - now rewrite firstn_nil.
  - now rewrite IH.
Qed.

Lemma skipn_add {A} (a b : nat) (l : list A) : skipn (a + b) l = skipn b (skipn a l).
Proof.
  revert l. induction a as [|a IH]; intros [|x l]; cbn; try reflexivity.
  - now rewrite skipn_nil.
  - apply IH.
Qed.

Lemma nth_error_skipn {A} (n i : nat) (l : list A) : nth_error (skipn n l) i = nth_error l (n + i).
Proof.
  revert l. induction n as [|n IH]; intros l; cbn; [reflexivity|].
  destruct l as [|x l]; cbn; [now destruct i|]. apply IH.
Qed.

Lemma Forall_skipn {A} (P : A -> Prop) k l : Forall P l -> Forall P (skipn k l).
Proof. intros H. rewrite <- (firstn_skipn k l) in H. apply Forall_app in H. apply H. Qed.

Lemma map_nth_seq {A} (l : list A) d : map (fun i => nth i l d) (seq 0 (length l)) = l.
Proof.
  induction l as [|x l IH]; [reflexivity|].
  cbn. f_equal. rewrite <- seq_shift, map_map. apply IH.
Qed.

(* Association lists whose keys are compared by eqb, read from the front: the first entry of a key is
   its value.  The stores, buckets, documents and tables of the models are such lists with functions of
   their own.  Where such a function has no type argument it is convertible with aget (adel, aput, aupd) at
   its equality and its value type, and the lemmas below apply to it as they stand; where the type is an
   argument of the fixpoint itself, a one-line induction identifies the two. *)
Section AssocDef.
  Context {K A : Type} (eqb : K -> K -> bool).
  Fixpoint aget (k : K) (l : list (K * A)) : option A :=
    match l with [] => None | (k', v) :: r => if eqb k k' then Some v else aget k r end.
  Fixpoint adel (k : K) (l : list (K * A)) : list (K * A) :=
    match l with [] => [] | (k', v) :: r => if eqb k k' then adel k r else (k', v) :: adel k r end.
  Definition aput (k : K) (v : A) (l : list (K * A)) : list (K * A) := (k, v) :: adel k l.
  (* the other way of writing: the entry of k is overwritten where it stands, a new one goes to the end *)
  Fixpoint aupd (k : K) (v : A) (l : list (K * A)) : list (K * A) :=
    match l with [] => [(k, v)] | (k', v') :: r => if eqb k k' then (k', v) :: r else (k', v') :: aupd k v r end.

  Lemma adel_filter k l : adel k l = filter (fun kv => negb (eqb k (fst kv))) l.
  Proof. induction l as [|[i v] r IH]; cbn; [reflexivity|]. rewrite IH. now destruct (eqb k i). Qed.
  Lemma aget_app k l1 l2 : aget k (l1 ++ l2) = match aget k l1 with Some v => Some v | None => aget k l2 end.
  Proof. induction l1 as [|[i v] r IH]; cbn; [reflexivity|]. now destruct (eqb k i). Qed.
End AssocDef.

Section Assoc.
  Context {K A : Type} {eqb : K -> K -> bool}.
  Implicit Types (k : K) (v : A) (l : list (K * A)).

  Lemma adel_NoDup k l : NoDup (map fst l) -> NoDup (map fst (adel eqb k l)).
  Proof. rewrite adel_filter. apply NoDup_map_filter. Qed.
  Lemma adel_absent k l : aget eqb k l = None -> adel eqb k l = l.
  Proof.
    induction l as [|[i w] r IH]; cbn; [reflexivity|].
    destruct (eqb k i); [discriminate|]. intros H. now rewrite IH.
  Qed.

  Hypothesis eqb_spec : forall a b, reflect (a = b) (eqb a b).

  Lemma aget_adel k k' l : aget eqb k (adel eqb k' l) = if eqb k k' then None else aget eqb k l.
  Proof.
    induction l as [|[i v] r IH]; cbn; [now destruct (eqb k k')|].
    destruct (eqb_spec k' i) as [<-|Hi]; cbn; rewrite IH; [now destruct (eqb k k')|].
    destruct (eqb_spec k k') as [->|]; [|reflexivity]. now destruct (eqb_spec k' i).
  Qed.
  Lemma aget_aput k k' v l : aget eqb k (aput eqb k' v l) = if eqb k k' then Some v else aget eqb k l.
  Proof. cbn. destruct (eqb k k') eqn:E; [reflexivity|]. now rewrite aget_adel, E. Qed.

  Lemma aget_In k v l : aget eqb k l = Some v -> In (k, v) l.
  Proof.
    induction l as [|[i w] r IH]; cbn; [discriminate|].
    destruct (eqb_spec k i) as [->|]; [intros [= ->]; now left|auto].
  Qed.
  Lemma aget_keys k l : aget eqb k l <> None <-> In k (map fst l).
  Proof.
    induction l as [|[i w] r IH]; cbn; [tauto|].
    destruct (eqb_spec k i) as [->|Hne]; [split; [now left|discriminate]|].
    rewrite IH. split; [tauto|]. intros [E|H]; [congruence|exact H].
  Qed.
  Lemma aget_notin k l : aget eqb k l = None <-> ~ In k (map fst l).
  Proof. rewrite <- aget_keys. destruct (aget eqb k l); intuition congruence. Qed.
  Lemma In_aget k v l : NoDup (map fst l) -> In (k, v) l -> aget eqb k l = Some v.
  Proof.
    induction l as [|[i w] r IH]; cbn; intros Hnd Hin; [contradiction|].
    apply NoDup_cons_iff in Hnd as [Hi Hr]. destruct (eqb_spec k i) as [->|Hne].
    - destruct Hin as [[= ->]|Hin]; [reflexivity|]. destruct Hi. apply (in_map fst _ _ Hin).
    - destruct Hin as [[= E _]|Hin]; [congruence|auto].
  Qed.

  Lemma adel_In k kv l : In kv (adel eqb k l) -> In kv l /\ fst kv <> k.
  Proof.
    induction l as [|[i v] r IH]; cbn; [tauto|].
    destruct (eqb_spec k i) as [->|Hne]; cbn; [intros H; destruct (IH H); auto|].
    intros [<-|H]; [cbn; auto|destruct (IH H); auto].
  Qed.
  Lemma aput_NoDup k v l : NoDup (map fst l) -> NoDup (map fst (aput eqb k v l)).
  Proof.
    intros H. cbn. constructor; [|now apply adel_NoDup].
    intros Hin. apply in_map_iff in Hin as (kv & E & Hin). now apply adel_In in Hin as [_ Hin].
  Qed.
  Lemma adel_length k l : NoDup (map fst l) -> aget eqb k l <> None -> S (length (adel eqb k l)) = length l.
  Proof.
    induction l as [|[i w] r IH]; cbn; [congruence|]. rewrite NoDup_cons_iff. intros [Hi Hr] H.
    destruct (eqb_spec k i) as [->|]; [|cbn; now rewrite IH].
    now rewrite adel_absent by now apply aget_notin.
  Qed.

  Lemma aget_aupd k k' v l : aget eqb k (aupd eqb k' v l) = if eqb k k' then Some v else aget eqb k l.
  Proof.
    induction l as [|[i w] r IH]; cbn; [reflexivity|].
    destruct (eqb_spec k' i) as [<-|Hi]; cbn; [now destruct (eqb k k')|].
    rewrite IH. destruct (eqb_spec k i) as [->|]; [|reflexivity]. destruct (eqb_spec i k'); congruence.
  Qed.
  Lemma aupd_keys k v l :
    map fst (aupd eqb k v l) = match aget eqb k l with Some _ => map fst l | None => map fst l ++ [k] end.
  Proof.
    induction l as [|[i w] r IH]; cbn; [reflexivity|].
    destruct (eqb k i); cbn; [reflexivity|]. rewrite IH. now destruct (aget eqb k r).
  Qed.
  Lemma aupd_NoDup k v l : NoDup (map fst l) -> NoDup (map fst (aupd eqb k v l)).
  Proof.
    intros H. rewrite aupd_keys. destruct (aget eqb k l) eqn:E; [exact H|]. apply aget_notin in E.
    apply NoDup_app_iff. repeat split; [exact H|repeat constructor; auto|]. intros x Hx [<-|[]]. contradiction.
  Qed.

  (* two lists agree, in a sense that holds of two absent keys, at every key iff they do at their own keys *)
  Lemma forallb_keys (f : option A -> option A -> bool) l l' : f None None = true ->
    forallb (fun kv => f (aget eqb (fst kv) l) (aget eqb (fst kv) l')) (l ++ l') = true <->
    forall k, f (aget eqb k l) (aget eqb k l') = true.
  Proof.
    intros H0. rewrite forallb_forall. split; [|intros H kv _; apply H]. intros H k.
    destruct (aget eqb k l) as [v|] eqn:E.
    - rewrite <- E. apply (H (k, v)), in_or_app. left. now apply aget_In.
    - destruct (aget eqb k l') as [v|] eqn:E'; [|exact H0].
      rewrite <- E, <- E'. apply (H (k, v)), in_or_app. right. now apply aget_In.
  Qed.
End Assoc.
