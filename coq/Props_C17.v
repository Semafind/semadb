(* Props_C17.v -- property C17: multi-shard fan-out finds each point exactly
   once and merges results in order.  The statements; each proof is
   `exact <lemma>` or a few lines from the lemmas of Proofs_C17.v.

   Vocabulary (Model_C17.v): a collection is a list of shards, each a store of
   C01 with an availability flag; `flat c` is the collection seen as ONE store
   (the reference state of C01/C02/C06); `unique_ids c` = no id twice in the
   collection.  `fan_delete` / `fan_update` send the request to every shard and
   collect `Some ids` (what the shard processed) or `None` (no answer);
   `curate_failed` is curateFailedPoints (sort + binary search); `merged` is the
   relation "res is a possible result of concatenating the per-shard answers,
   sorting them with ANY correct sort when there are several, and cutting at
   the limit"; `cluster_search` is SearchPoints given every shard's full answer.
   All statements hold for every number of shards, every placement on servers
   (the model does not depend on it), every store content and every request. *)
From Coq Require Import List NArith ZArith Bool Arith Lia Sorted Permutation.
From Semadb Require Import Bytes Value Obs Model_C01 Model_C02 Model_C06 Model_C06M Model_C17 Proofs_C17.
Import ListNotations.
Open Scope N_scope.

(* the binary search of curateFailedPoints on a slice sorted by bytes.Compare: it returns the lower
   bound of the target and "found" exactly when the target occurs *)
Theorem c17_binary_search_sound : forall (l : list uuid) (t : uuid),
  Sorted (cle lex_compare) l ->
  (snd (bsearch l t) = true <-> In t l) /\
  (fst (bsearch l t) <= length l)%nat /\
  (forall k, (k < fst (bsearch l t))%nat -> lex_compare (nth k l []) t = Lt) /\
  (forall k, (fst (bsearch l t) <= k)%nat -> (k < length l)%nat -> lex_compare (nth k l []) t <> Lt).
Proof. intros l t Hs. exact (conj (bsearch_found l t Hs) (bsearch_position l t Hs)). Qed.
Print Assumptions c17_binary_search_sound.

(* failed = requested minus processed, in request order with the request's duplicates; one message
   for all of them: "not found" iff every shard answered *)
Theorem c17_failed_exact : forall (all success : list uuid) (is_complete : bool),
  curate_failed all success is_complete =
    map (fun id => (id, failed_msg is_complete)) (filter (fun id => negb (mem_bytes id success)) all) /\
  (forall id m, In (id, m) (curate_failed all success is_complete) <->
                In id all /\ ~ In id success /\ m = failed_msg is_complete) /\
  (forall sorted, Permutation success sorted -> Sorted (cle lex_compare) sorted ->
                  curate_sorted all sorted is_complete = curate_failed all success is_complete) /\
  (failed_msg is_complete = MSG_NOT_FOUND <-> is_complete = true) /\
  (failed_msg is_complete = MSG_UNAVAILABLE <-> is_complete = false).
Proof.
  intros all success c.
  split; [apply curate_failed_spec|].
  split; [intros id m; rewrite curate_failed_spec; apply failed_spec_In|].
  split; [intros sorted Hp Hs; rewrite curate_failed_spec; now apply curate_sorted_spec|].
  destruct c; cbn; split; split; intros; try reflexivity; try discriminate.
Qed.
Print Assumptions c17_failed_exact.

(* delete: with ids unique per collection every available shard reports exactly the requested ids it
   holds, shards holding none of them are untouched, and no id is reported twice (by one shard or by
   two); also with unavailable shards *)
Theorem c17_found_once : forall (ids : list uuid) (c : collection), unique_ids c ->
  let c' := fst (fan_delete ids c) in
  let rs := snd (fan_delete ids c) in
  (forall k sh, nth_error c k = Some sh ->
     nth_error rs k = Some (if sh_up sh then Some (known_of ids (sh_store sh)) else None) /\
     nth_error c' k = Some (if sh_up sh then mkShard (fst (delete_spec ids (sh_store sh))) true else sh)) /\
  (forall k sh sh', nth_error c k = Some sh -> nth_error c' k = Some sh' ->
     (forall id, In id ids -> ~ In id (store_ids (sh_store sh))) -> sh' = sh) /\
  NoDup (successes rs) /\
  (forall k1 k2 r1 r2 id, nth_error rs k1 = Some r1 -> nth_error rs k2 = Some r2 ->
     In id (resp_ids r1) -> In id (resp_ids r2) -> k1 = k2) /\
  (forall id, In id (successes rs) <->
     In id ids /\ exists sh, In sh c /\ sh_up sh = true /\ In id (store_ids (sh_store sh))).
Proof.
  intros ids c Hu c' rs. subst c' rs. rewrite fan_delete_eq. cbn [fst snd].
  destruct (fan_found_once (del_resp_of ids) (del_state_of ids) ids c Hu (del_resp_NoDup ids))
    as (H1 & H2 & H3 & H4 & _); [intros sh x Hx; now apply del_resp_In in Hx|apply del_state_untouched|].
  exact (conj H1 (conj H2 (conj H3 (conj H4 (del_successes_In ids c))))).
Qed.
Print Assumptions c17_found_once.

(* update: as for delete; a shard that answers applies the batch to the requested ids it holds, a shard
   that does not answer (down, or its transaction failed) is unchanged *)
Theorem c17_found_once_update : forall sc mx (ps : list (uuid * doc)) (c : collection),
  unique_ids c -> NoDup (map fst ps) ->
  let c' := fst (fan_update sc mx ps c) in
  let rs := snd (fan_update sc mx ps c) in
  (forall k sh, nth_error c k = Some sh ->
     exists r sh', nth_error rs k = Some r /\ nth_error c' k = Some sh' /\
       ((r = None /\ sh' = sh) \/
        (r = Some (filter (fun id => st_mem id (sh_store sh)) (map fst ps)) /\ sh_up sh = true /\
         sh' = mkShard (upd_store sc mx ps (sh_store sh)) true))) /\
  (forall k sh sh', nth_error c k = Some sh -> nth_error c' k = Some sh' ->
     (forall id, In id (map fst ps) -> ~ In id (store_ids (sh_store sh))) -> sh' = sh) /\
  NoDup (successes rs) /\
  (forall k1 k2 r1 r2 id, nth_error rs k1 = Some r1 -> nth_error rs k2 = Some r2 ->
     In id (resp_ids r1) -> In id (resp_ids r2) -> k1 = k2) /\
  (forall id, In id (successes rs) -> In id (map fst ps) /\ In id (all_ids c)).
Proof.
  intros sc mx ps c Hu Hps c' rs. subst c' rs. rewrite fan_update_eq. cbn [fst snd].
  destruct (fan_found_once _ _ (map fst ps) c Hu (fun sh => upd_resp_NoDup sc mx ps sh Hps) (upd_resp_sub sc mx ps)
              (upd_state_untouched sc mx ps)) as [H1 H2].
  split; [|exact H2]. intros k sh Hk. destruct (H1 k sh Hk) as [Hr Hs].
  exists (upd_resp_of sc mx ps sh), (upd_state_of sc mx ps sh). exact (conj Hr (conj Hs (upd_resp_state sc mx ps sh))).
Qed.
Print Assumptions c17_found_once_update.

(* against ONE collection-level reference (all shards available): the shards together behave as the
   delete of C01 on the whole collection, and the response lists exactly the requested ids that were
   not stored, as "not found" *)
Theorem c17_delete_reference : forall (ids : list uuid) (c : collection), all_up c = true ->
  let c' := fst (fan_delete ids c) in
  let rs := snd (fan_delete ids c) in
  (forall id, st_get id (flat c') = st_get id (fst (delete_spec ids (flat c)))) /\
  (forall id, In id (successes rs) <-> In id (known_of ids (flat c))) /\
  complete rs = true /\
  snd (delete_points ids c) =
    map (fun id => (id, MSG_NOT_FOUND)) (filter (fun id => negb (st_mem id (flat c))) ids).
Proof.
  intros ids c Hup c' rs. subst c' rs. unfold delete_points. rewrite fan_delete_eq. cbn [fst snd].
  destruct (fan_reference (del_resp_of ids) ids c) as (Hs & Hc & Hf).
  { intros sh Hsh. exists (known_of ids (sh_store sh)). unfold del_resp_of. rewrite (proj1 (all_up_In c) Hup sh Hsh).
    split; [reflexivity|intros x; apply known_In]. }
  split; [intros id; now apply flat_delete_get|]. split; [|exact (conj Hc Hf)].
  intros id. now rewrite Hs, known_In, flat_ids.
Qed.
Print Assumptions c17_delete_reference.

(* update against the same collection-level reference, whenever every shard answered *)
Theorem c17_update_reference : forall sc mx (ps : list (uuid * doc)) (c : collection),
  complete (snd (fan_update sc mx ps c)) = true ->
  let c' := fst (fan_update sc mx ps c) in
  let rs := snd (fan_update sc mx ps c) in
  (forall id, st_get id (flat c') = st_get id (upd_store sc mx ps (flat c))) /\
  (forall id, In id (successes rs) <-> In id (upd_ids sc mx ps (flat c))) /\
  snd (update_points sc mx ps c) =
    map (fun id => (id, MSG_NOT_FOUND)) (filter (fun id => negb (st_mem id (flat c))) (map fst ps)).
Proof.
  intros sc mx ps c Hc c' rs. subst c' rs. unfold update_points. rewrite fan_update_eq in *. cbn [fst snd] in *.
  destruct (fan_reference (upd_resp_of sc mx ps) (map fst ps) c) as (Hs & _ & Hf).
  { intros sh Hsh. eexists. split; [apply (upd_complete sc mx ps c Hc sh Hsh)|]. intros x. now rewrite filter_In, smem_In. }
  split; [intros id; now apply flat_update_get|]. split; [|exact Hf].
  intros id. now rewrite Hs, upd_ids_spec, filter_In, smem_In, flat_ids.
Qed.
Print Assumptions c17_update_reference.

(* insert: when distributePoints gives every new point to one shard (parts: one sub-batch per shard, new
   shards after the existing ones) and the ids are new, every inserted point is found with its document
   through the collection seen as one store, which is exactly the insert of C01 on that store *)
Theorem c17_insert_reference : forall sc (parts : list (list (uuid * doc))) (c : collection),
  all_up c = true ->
  NoDup (map fst (concat parts)) ->
  (forall id, In id (map fst (concat parts)) -> ~ In id (all_ids c)) ->
  Forall (fun p => forallb (fun q => well_typed sc (snd q)) p = true) parts ->
  (forall id, st_get id (flat (fan_insert sc parts c)) =
              match st_get id (concat parts) with Some d => Some d | None => st_get id (flat c) end) /\
  insert_spec sc (concat parts) (flat c) =
    (fold_left (fun acc p => st_set (fst p) (snd p) acc) (concat parts) (flat c), SOk []) /\
  (forall id, st_get id (flat (fan_insert sc parts c)) =
              st_get id (fst (insert_spec sc (concat parts) (flat c)))).
Proof.
  intros sc parts c Hup Hn Hf Ht.
  assert (Hspec := insert_concat_accepts sc parts (flat c) Hn ltac:(now rewrite flat_ids) Ht).
  split; [intros id; now apply fan_insert_get|]. split; [exact Hspec|].
  intros id. rewrite fan_insert_get, Hspec by assumption. cbn [fst]. now rewrite Proofs_C01.fold_set_get.
Qed.
Print Assumptions c17_insert_reference.

(* the hypothesis of c17_found_once is an invariant of every history: an insert that gives each new
   point to one shard (parts = the ranges of distributePoints, C15), an update and a delete keep the
   ids unique per collection, whatever shards are available or refuse their part *)
Theorem c17_unique_preserved :
  (forall sc parts c, unique_ids c -> NoDup (map fst (concat parts)) ->
     (forall id, In id (map fst (concat parts)) -> ~ In id (all_ids c)) ->
     unique_ids (fan_insert sc parts c)) /\
  (forall sc mx ps c, unique_ids c -> unique_ids (fst (fan_update sc mx ps c))) /\
  (forall ids c, unique_ids c -> unique_ids (fst (fan_delete ids c))).
Proof. exact (conj fan_insert_unique (conj fan_update_unique fan_delete_unique)). Qed.
Print Assumptions c17_unique_preserved.

(* the merge, for ANY per-shard answers and ANY correct sort: at most `limit` rows, each from some shard's
   answer, no id twice when the answers share none; with several answers the result is sorted and holds
   the least rows of all answers; with one answer it is that answer cut at the limit, unsorted *)
Theorem c17_merge : forall keys limit (answers : list (list row)) (res : list row),
  merged keys limit answers res ->
  (length res <= N.to_nat limit)%nat /\
  (forall r, In r res -> exists a, In a answers /\ In r a) /\
  (Forall (fun a => NoDup (map r_id a)) answers -> ForallOrdPairs ids_disjoint answers ->
   NoDup (map r_id res)) /\
  ((1 < length answers)%nat ->
   Sorted (cle (row_cmp keys)) res /\
   exists rest, Permutation (concat answers) (res ++ rest) /\
                forall x y, In x res -> In y rest -> cle (row_cmp keys) x y) /\
  ((length answers <= 1)%nat -> res = cut limit (concat answers)).
Proof.
  intros keys limit answers res [l [Hl ->]].
  assert (Hp : Permutation (concat answers) l) by (destruct (1 <? length answers)%nat; [apply Hl|now subst]).
  destruct (cut_perm r_id limit _ l Hp) as (H1 & H2 & H3). split; [exact H1|].
  split; [intros r Hr; apply in_concat, H2, Hr|]. split; [intros Hn Hd; apply H3, concat_ids_NoDup; assumption|].
  split; [intros Hlt; apply Nat.ltb_lt in Hlt|intros Hle; apply Nat.ltb_ge in Hle]; rewrite ?Hlt, ?Hle in Hl; [|now subst].
  exact (cut_sorted_perm _ limit _ l (row_cmp_preorder keys) Hl).
Qed.
Print Assumptions c17_merge.

(* the executable merge is one of the allowed results, and the order it sorts by is a total preorder
   (hybrid score descending without sort keys, utils.SortSearchResults' comparator with them) *)
Theorem c17_merge_search_correct : forall keys limit (answers : list (list row)),
  merged keys limit answers (merge_search keys limit answers) /\ cmp_preorder (row_cmp keys).
Proof. intros keys limit answers. exact (conj (merge_search_merged keys limit answers) (row_cmp_preorder keys)). Qed.
Print Assumptions c17_merge_search_correct.

(* the per-shard limit: never above the requested limit or MaxSearchLimit, never below
   min(10, MaxSearchLimit, limit); so it only bounds the result from above *)
Theorem c17_limit_bounds : forall limit nshards maxlimit,
  per_shard_limit limit nshards maxlimit <= limit /\
  per_shard_limit limit nshards maxlimit <= maxlimit /\
  N.min (N.min 10 maxlimit) limit <= per_shard_limit limit nshards maxlimit /\
  (1 <= limit -> 1 <= maxlimit -> 1 <= per_shard_limit limit nshards maxlimit).
Proof. exact per_shard_limit_bounds. Qed.
Print Assumptions c17_limit_bounds.

(* in the range of the API the four rounded float32 operations give floor(1.42 * limit / nshards) + 10 *)
Theorem c17_limit_formula_api_range : forall limit nshards, limit <= 100 -> 1 <= nshards <= 64 ->
  poisson_target limit nshards = (142 * limit) / (100 * nshards) + 10.
Proof.
  intros l n Hl Hn. pose proof (poisson_target_ge_10 l n) as H10. rewrite poisson_target_dy in * by lia.
  pose proof (forallb_N_seq _ 101 0 l (forallb_N_seq _ 64 1 n poisson_table ltac:(lia)) ltac:(lia)) as T.
  cbv beta zeta in T. set (t := dy_target l _) in *.
  rewrite <- (N.div_unique (142 * l) (100 * n) (t - 10) (142 * l - (t - 10) * (100 * n))); lia.
Qed.
Print Assumptions c17_limit_formula_api_range.

Theorem c17_limit_single_shard : forall limit maxlimit, limit <= 100 ->
  per_shard_limit limit 1 maxlimit = N.min limit maxlimit.
Proof.
  intros limit mx Hl. unfold per_shard_limit. rewrite (c17_limit_formula_api_range limit 1) by lia.
  assert (limit <= 142 * limit / (100 * 1) + 10).
  { transitivity (142 * limit / 100); [|lia]. apply N.div_le_lower_bound; lia. }
  lia.
Qed.
Print Assumptions c17_limit_single_shard.

(* what the heuristic does NOT guarantee: a search can return fewer than `limit` rows although the
   shards hold more matching ones (40 matches in one of two shards, limit 40: 38 rows) *)
Theorem c17_poisson_can_return_fewer :
  exists (limit maxlimit : N) (full : list (list row)),
    (N.to_nat limit <= length (concat full))%nat /\
    NoDup (map r_id (concat full)) /\
    (length (cluster_search [] limit 0 maxlimit full) < N.to_nat limit)%nat.
Proof.
  exists 40, 75, [map (fun k => mkRow [k] None None None 0) (N_seq 0 40); []]. split; [|split].
  - vm_compute. lia.
  - apply (proj1 (IdSets.nodup_ids_NoDup _)). vm_compute. reflexivity.
  - vm_compute. lia.
Qed.
Print Assumptions c17_poisson_can_return_fewer.

(* when no shard has more rows than the per-shard limit and there is no offset, nothing is lost:
   the result is a merge of the FULL answers, hence all rows when there are at most `limit` *)
Theorem c17_exact_regime : forall keys limit maxlimit (full : list (list row)),
  let n := N.of_nat (length full) in
  1 <= limit -> 1 <= maxlimit ->
  Forall (fun a => (length a <= N.to_nat (per_shard_limit limit n maxlimit))%nat) full ->
  shard_pages limit 0 maxlimit full = full /\
  merged keys limit full (cluster_search keys limit 0 maxlimit full) /\
  ((length (concat full) <= N.to_nat limit)%nat ->
   Permutation (concat full) (cluster_search keys limit 0 maxlimit full)).
Proof.
  intros keys limit mx full n H1 H2 HF. pose proof (shard_pages_full limit mx full H1 H2 HF) as Hp.
  split; [exact Hp|]. unfold cluster_search. rewrite Hp. split; [apply merge_search_merged|apply merge_search_all].
Qed.
Print Assumptions c17_exact_regime.

(* offsets: every shard skips per_shard_offset rows of its own answer before the merge.  With one shard
   that is the requested offset; when the offset is a multiple of the shard count it is offset / nshards,
   so the shards together skip at most `offset` rows, and exactly that many when each holds enough *)
Theorem c17_offset_semantics : forall keys limit offset maxlimit (full : list (list row)),
  let n := N.of_nat (length full) in
  let o' := per_shard_offset offset n in
  let l' := per_shard_limit limit n maxlimit in
  cluster_search keys limit offset maxlimit full = merge_search keys limit (map (page o' l') full) /\
  (1 <= limit -> 1 <= maxlimit ->
   map (page o' l') full = map (fun a => firstn (N.to_nat l') (skipn (N.to_nat o') a)) full) /\
  (forall a, full = [a] -> 1 <= limit -> 1 <= maxlimit ->
     cluster_search keys limit offset maxlimit full = firstn (N.to_nat l') (skipn (N.to_nat offset) a)) /\
  (1 < n -> offset mod n = 0 ->
     o' = offset / n /\
     (length (concat (map (firstn (N.to_nat o')) full)) <= N.to_nat offset)%nat /\
     (Forall (fun a => (N.to_nat o' <= length a)%nat) full ->
      length (concat (map (firstn (N.to_nat o')) full)) = N.to_nat offset)).
Proof.
  intros keys limit offset mx full n o' l'. split; [reflexivity|].
  split; [intros H1 H2; apply map_ext; intros a; now apply page_split, per_shard_limit_pos|].
  split; [intros a -> H1 H2; now apply cluster_search_single|].
  intros Hn Hm. destruct (proj1 (proj2 (per_shard_offset_cases offset n)) Hn Hm) as [E1 E2]. fold o' in E1, E2.
  split; [exact E1|]. rewrite <- E2. unfold n. rewrite N2Nat.inj_mul, Nat2N.id.
  split; [apply skipped_bound|apply skipped_total].
Qed.
Print Assumptions c17_offset_semantics.

(* the behaviour documented in the comment of SearchPoints: an offset that is not a multiple of the shard
   count goes unchanged to every shard, so up to nshards * offset rows are skipped *)
Theorem c17_offset_not_multiple : forall limit offset maxlimit (full : list (list row)),
  let n := N.of_nat (length full) in
  1 < n -> offset mod n <> 0 ->
  per_shard_offset offset n = offset /\
  shard_pages limit offset maxlimit full = map (page offset (per_shard_limit limit n maxlimit)) full /\
  (length (concat (map (firstn (N.to_nat offset)) full)) <= length full * N.to_nat offset)%nat /\
  (Forall (fun a => (N.to_nat offset <= length a)%nat) full ->
   length (concat (map (firstn (N.to_nat offset)) full)) = (length full * N.to_nat offset)%nat).
Proof.
  intros limit offset mx full n Hn Hm.
  pose proof (proj2 (proj2 (per_shard_offset_cases offset n)) Hn Hm) as E.
  split; [exact E|]. split; [unfold shard_pages; fold n; now rewrite E|].
  split; [apply skipped_bound|apply skipped_total].
Qed.
Print Assumptions c17_offset_not_multiple.

(* Concrete collections, evaluated by the kernel: the hypotheses of the theorems can be met, and the
   model gives the answers expected of SearchPoints / DeletePoints / UpdatePoints on them. *)

Definition ex_id (k : N) : uuid := [k; 0; 7].
Definition ex_doc (k : Z) : doc := [([105], VInt k)].                       (* {"i": k} *)
Definition ex_col : collection :=
  [ mkShard [(ex_id 1, ex_doc 10); (ex_id 5, ex_doc 50)] true;
    mkShard [(ex_id 3, ex_doc 30)] true;
    mkShard [(ex_id 9, ex_doc 90); (ex_id 2, ex_doc 20)] true ].
Definition ex_col_down : collection :=
  [ mkShard [(ex_id 1, ex_doc 10); (ex_id 5, ex_doc 50)] true;
    mkShard [(ex_id 3, ex_doc 30)] false;
    mkShard [(ex_id 9, ex_doc 90); (ex_id 2, ex_doc 20)] true ].

Example c17_ex_unique : unique_ids ex_col /\ all_up ex_col = true /\ all_up ex_col_down = false.
Proof. split; [|split; reflexivity]. apply (proj1 (IdSets.nodup_ids_NoDup _)). reflexivity. Qed.

(* delete 9, 4 (unknown), 3, 9 again: shard 1 reports 3, shard 2 reports 9 once; failed = [4] "not found";
   with shard 1 down: failed = [4; 3] "unavailable" and point 3 survives *)
Example c17_ex_delete :
  snd (fan_delete [ex_id 9; ex_id 4; ex_id 3; ex_id 9] ex_col) = [Some []; Some [ex_id 3]; Some [ex_id 9]] /\
  snd (delete_points [ex_id 9; ex_id 4; ex_id 3; ex_id 9] ex_col) = [(ex_id 4, MSG_NOT_FOUND)] /\
  map (fun sh => store_ids (sh_store sh)) (fst (fan_delete [ex_id 9; ex_id 4; ex_id 3; ex_id 9] ex_col))
    = [[ex_id 1; ex_id 5]; []; [ex_id 2]] /\
  snd (delete_points [ex_id 9; ex_id 4; ex_id 3; ex_id 9] ex_col_down)
    = [(ex_id 4, MSG_UNAVAILABLE); (ex_id 3, MSG_UNAVAILABLE)] /\
  map (fun sh => store_ids (sh_store sh)) (fst (fan_delete [ex_id 9; ex_id 4; ex_id 3; ex_id 9] ex_col_down))
    = [[ex_id 1; ex_id 5]; [ex_id 3]; [ex_id 2]].
Proof. vm_compute. repeat split; reflexivity. Qed.

(* insert of three new points: one into the room of shard 1, two into a new fourth shard *)
Example c17_ex_insert :
  let parts := [[]; [(ex_id 4, ex_doc 40)]; []; [(ex_id 6, ex_doc 60); (ex_id 7, ex_doc 70)]] in
  map (fun sh => store_ids (sh_store sh)) (fan_insert [] parts ex_col)
    = [[ex_id 1; ex_id 5]; [ex_id 4; ex_id 3]; [ex_id 9; ex_id 2]; [ex_id 7; ex_id 6]] /\
  st_get (ex_id 7) (flat (fan_insert [] parts ex_col)) = Some (ex_doc 70).
Proof. vm_compute. split; reflexivity. Qed.

(* update of 5 and of the unknown 7: only shard 0 changes *)
Example c17_ex_update :
  snd (update_points [] 1000 [(ex_id 5, ex_doc 55); (ex_id 7, ex_doc 70)] ex_col) = [(ex_id 7, MSG_NOT_FOUND)] /\
  st_get (ex_id 5) (flat (fst (update_points [] 1000 [(ex_id 5, ex_doc 55); (ex_id 7, ex_doc 70)] ex_col)))
    = Some (ex_doc 55) /\
  complete (snd (fan_update [] 1000 [(ex_id 5, ex_doc 55); (ex_id 7, ex_doc 70)] ex_col)) = true.
Proof. vm_compute. repeat split; reflexivity. Qed.

(* the binary search on a sorted slice with a prefix pair and a duplicate *)
Example c17_ex_bsearch :
  let l := [[1]; [1; 0]; [1; 0]; [2]; [255; 255]] in
  Sorted (cle lex_compare) l /\
  map (fun t => bsearch l t) [[0]; [1]; [1; 0]; [1; 1]; [2]; [3]; [255; 255]; [255; 255; 0]]
  = [(0, false); (0, true); (1, true); (3, false); (3, true); (4, false); (4, true); (5, false)]%nat.
Proof. split; [|vm_compute; reflexivity]. repeat constructor; cbn; discriminate. Qed.

(* merge: three shards, sort by "i" ascending, limit 4 *)
Definition ex_row (k : N) (i : Z) : row := mkRow (ex_id k) (Some (ex_doc i)) None None 0.
Example c17_ex_merge :
  let answers := [[ex_row 1 10; ex_row 5 50]; [ex_row 3 30]; [ex_row 2 20; ex_row 9 90]] in
  map r_id (merge_search [([105], false)] 4 answers) = [ex_id 1; ex_id 2; ex_id 3; ex_id 5] /\
  Forall (fun a => NoDup (map r_id a)) answers /\ ForallOrdPairs ids_disjoint answers.
Proof.
  split; [vm_compute; reflexivity|]. split.
  - repeat constructor; cbn; intuition discriminate.
  - repeat constructor; intros id; cbn; intuition (subst; discriminate).
Qed.

(* limits of the API range *)
Example c17_ex_limits :
  map (fun p => per_shard_limit (fst p) (snd p) 75) [(100, 1); (100, 2); (100, 3); (100, 6); (40, 2); (20, 6); (10, 3); (3, 2); (1, 6)]
  = [75; 75; 57; 33; 38; 14; 10; 3; 1].
Proof. vm_compute. reflexivity. Qed.

(* offsets.  Two shards A = 1,2,3 and B = 4,5,6 (sorted by "i"), limit 2:
   offset 2 (a multiple of 2): each shard skips ONE row -> pages 2,3 and 5,6 merged -> [2;3], whereas the global
   slice would be [3;4];  offset 1 (not a multiple): each shard skips one row too -> the same answer;
   offset 3: every shard skips three rows -> nothing is returned although 6 rows exist *)
Example c17_ex_offsets :
  let full := [[ex_row 1 1; ex_row 2 2; ex_row 3 3]; [ex_row 4 4; ex_row 5 5; ex_row 6 6]] in
  map r_id (cluster_search [([105], false)] 2 2 75 full) = [ex_id 2; ex_id 3] /\
  map r_id (cluster_search [([105], false)] 2 1 75 full) = [ex_id 2; ex_id 3] /\
  map r_id (cluster_search [([105], false)] 2 3 75 full) = [] /\
  map r_id (cluster_search [([105], false)] 2 0 75 full) = [ex_id 1; ex_id 2].
Proof. vm_compute. repeat split; reflexivity. Qed.
