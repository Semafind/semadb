(* Props_C19.v -- property C19: key and value encodings round-trip and
   preserve order.  The statements; the lemmas are in Proofs_C19.v, Bytes.v and KV.v. *)
From Coq Require Import List NArith ZArith Bool.
From Semadb Require Import Bytes U64 KeyLayout Model_C19 Proofs_C19 KV.
Import ListNotations.
Open Scope N_scope.

(* int64: round trip (hence injective) and order embedding, for EVERY int64 *)
Theorem c19_i64_roundtrip : forall z, in_i64 z -> dec_i64 (enc_i64 z) = z.
Proof. exact dec_enc_i64. Qed.
Print Assumptions c19_i64_roundtrip.

Theorem c19_i64_order : forall a b, in_i64 a -> in_i64 b ->
  lex_compare (enc_i64 a) (enc_i64 b) = Z.compare a b.
Proof. exact enc_i64_compare. Qed.
Print Assumptions c19_i64_order.

Theorem c19_u64_roundtrip : forall n, n < two64 -> dec_u64 (enc_u64 n) = n.
Proof. intros n Hn. apply unbe_be. now rewrite <- two64_256. Qed.
Print Assumptions c19_u64_roundtrip.
Theorem c19_u64_order : forall a b, a < two64 -> b < two64 ->
  lex_compare (enc_u64 a) (enc_u64 b) = N.compare a b.
Proof. intros a b Ha Hb. apply be_compare; now rewrite <- two64_256. Qed.
Print Assumptions c19_u64_order.

(* float64 on bit patterns; value identity is IEEE equality (-0.0 = +0.0) *)
Theorem c19_f64_order : forall a b, a < two64 -> b < two64 ->
  lex_compare (enc_f64 a) (enc_f64 b) = Z.compare (f64_ord a) (f64_ord b).
Proof. exact enc_f64_compare. Qed.
Print Assumptions c19_f64_order.

Theorem c19_f64_roundtrip : forall b, b < two64 ->
  dec_f64 (enc_f64 b) = (if f64_is_zero b then 0 else b) /\ f64_eq (dec_f64 (enc_f64 b)) b = true.
Proof. intros b Hb. rewrite (dec_enc_f64 b Hb). split; [reflexivity|exact (f64_eq_norm b)]. Qed.
Print Assumptions c19_f64_roundtrip.

(* the pinned encoder (before repair F1) violated the order at -0.0 *)
Theorem c19_negzero_refuted :
  lex_lt (enc_f64_v0 two63) (enc_f64_v0 18442240474082181120) = true
  /\ f64_lt 18442240474082181120 two63 = true
  /\ f64_nan (dec_f64 (enc_f64_v0 two63)) = true.
Proof. vm_compute. repeat split. Qed.
Print Assumptions c19_negzero_refuted.

(* strings: the key is the byte string itself *)
Theorem c19_str : forall s t, dec_str (enc_str s) = s /\ lex_compare (enc_str s) (enc_str t) = lex_compare s t.
Proof. intros; split; reflexivity. Qed.
Print Assumptions c19_str.

(* the little-endian value encodings: float32 vectors of any length, edge lists, a single uint64 *)
Theorem c19_f32s_roundtrip : forall xs, Forall (fun x => x < 4294967296) xs -> f32s_of_le (f32s_le xs) = xs.
Proof. exact f32s_roundtrip. Qed.
Print Assumptions c19_f32s_roundtrip.
Theorem c19_edges_roundtrip : forall xs, Forall (fun x => x < two64) xs -> edges_of_le (edges_le xs) = xs.
Proof. exact edges_roundtrip. Qed.
Print Assumptions c19_edges_roundtrip.
Theorem c19_u64_le_roundtrip : forall n, n < two64 -> u64_of_le (u64_le n) = n.
Proof.
  intros n Hn. unfold u64_of_le, u64_le.
  rewrite firstn_all2 by (rewrite le_length; apply Nat.le_refl). now apply unle_le.
Qed.
Print Assumptions c19_u64_le_roundtrip.

(* node, point, document and term keys: the id is read back from its key (from a node key only under the
   key's own suffix), equal keys mean equal id and suffix, and keys of different families never coincide *)
Theorem c19_node_key : forall id s, id < two64 ->
  node_id_from_key (node_key id s) s = Some id /\
  (forall s', s <> s' -> node_id_from_key (node_key id s) s' = None).
Proof. intros id s H. split; [exact (node_key_roundtrip id s H)|intros s' Hs; exact (node_key_other_suffix id s s' Hs)]. Qed.
Print Assumptions c19_node_key.
Theorem c19_node_key_inj : forall id s id' s', id < two64 -> id' < two64 ->
  node_key id s = node_key id' s' -> id = id' /\ s = s'.
Proof. exact node_key_inj. Qed.
Print Assumptions c19_node_key_inj.
Theorem c19_point_key_inj : forall u s u' s', length u = length u' ->
  point_key u s = point_key u' s' -> u = u' /\ s = s'.
Proof. exact point_key_inj. Qed.
Print Assumptions c19_point_key_inj.
Theorem c19_doc_key : forall id, id < two64 -> doc_id_from_key (doc_key id) = Some id.
Proof. exact doc_key_roundtrip. Qed.
Print Assumptions c19_doc_key.
Theorem c19_term_key : forall t, term_from_key (term_key t) = Some t.
Proof. exact term_key_roundtrip. Qed.
Print Assumptions c19_term_key.
Theorem c19_families_disjoint : forall id s u s' t d,
  node_key id s <> point_key u s' /\ term_key t <> doc_key d /\
  term_key t <> num_docs_key /\ doc_key d <> num_docs_key /\
  node_key id s <> max_node_id_key /\ node_key id s <> bq_threshold_key.
Proof. intros. repeat split; apply hd_neq; discriminate. Qed.
Print Assumptions c19_families_disjoint.

(* range and prefix scans visit exactly the keys in range (both backends) *)
Theorem c19_range_scan : forall l s e incl, ksorted l ->
  bbolt_range l s e incl = filter (in_range s e incl) l /\
  mem_range l s e incl = filter (in_range s e incl) l.
Proof. intros l s e incl H. split; [exact (bbolt_range_spec l s e incl H)|exact (mem_range_spec l s e incl H)]. Qed.
Print Assumptions c19_range_scan.
Theorem c19_prefix_scan : forall l p, ksorted l -> bbolt_prefix l p = filter (is_prefix p) l.
Proof. exact bbolt_prefix_spec. Qed.
Print Assumptions c19_prefix_scan.
Theorem c19_range_exact : forall (V : Type) (enc : V -> bytes) (vlt : V -> V -> bool),
  (forall a b, lex_lt (enc a) (enc b) = vlt a b) ->
  forall vals lo hi incl, ksorted (map enc vals) ->
  bbolt_range (map enc vals) (option_map enc lo) (option_map enc hi) incl
  = map enc (filter (v_in_range V vlt lo hi incl) vals).
Proof. exact range_scan_exact. Qed.
Print Assumptions c19_range_exact.

(* non-vacuity: concrete instances computed by the kernel *)
Example c19_ex_i64 : enc_i64 (-1) = [127;255;255;255;255;255;255;255] /\ dec_i64 (enc_i64 (-9223372036854775808)) = (-9223372036854775808)%Z.
Proof. vm_compute. split; reflexivity. Qed.
Example c19_ex_f64 : (* -Inf < -1.5 < -0.0 = +0.0 < 5e-324 < +Inf in key order *)
  map enc_f64 [18442240474082181120; 13832806255468478464; 9223372036854775808; 0; 1; 9218868437227405312]
  = [[0;15;255;255;255;255;255;255]; [64;7;255;255;255;255;255;255]; [128;0;0;0;0;0;0;0];
     [128;0;0;0;0;0;0;0]; [128;0;0;0;0;0;0;1]; [255;240;0;0;0;0;0;0]].
Proof. vm_compute. reflexivity. Qed.
Example c19_ex_scan :
  bbolt_range [[1];[2];[2;0];[3]] (Some [2]) (Some [3]) false = [[2;0]] /\ ksorted [[1];[2];[2;0];[3]].
Proof. split; [vm_compute; reflexivity|]. repeat constructor. Qed.
