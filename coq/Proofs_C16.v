(* Proofs_C16.v -- lemmas for property C16 (tenant isolation).

   A user b sees the state through two filters: the prefix scan of its keys and the
   shard directories below its user directory.  Every update a request makes is an
   association-list update at a key [rec_key a _] or a path below [user_dir root a];
   such an update commutes with the filters of b when a = b and is erased by them
   otherwise.  The equations have that form ([scan_put], [below_put],
   ...: "= if bytes_eqb a b then ... else ..."); non-interference reads them with
   a <> b, "own requests depend on the view only" with a = b. *)
From Coq Require Import List NArith Bool Arith.
From Semadb Require Import Bytes Model_C16.
Import ListNotations.
Open Scope N_scope.

Lemma map_fst_filter {A B} (g : A -> bool) (l : list (A * B)) :
  map fst (filter (fun kv => g (fst kv)) l) = filter g (map fst l).
Proof.
  induction l as [|[k v] l IH]; cbn; [reflexivity|]. destruct (g k); cbn; now rewrite IH.
Qed.

Section AssocFacts.
  Context {K V : Type} (eqb : K -> K -> bool).
  Hypothesis eqb_eq : forall a b, eqb a b = true <-> a = b.
  Variable g : K -> bool.

  Lemma al_get_In (l : list (K * V)) k v : al_get eqb l k = Some v -> In (k, v) l.
  Proof.
    induction l as [|[k' v'] t IH]; cbn; [discriminate|].
    destruct (eqb k' k) eqn:E.
    - apply eqb_eq in E. subst. intros H; inversion H; subst. now left.
    - intros H. right. auto.
  Qed.

  Lemma al_get_filter (l : list (K * V)) k : g k = true ->
    al_get eqb (filter (fun e => g (fst e)) l) k = al_get eqb l k.
  Proof.
    intros Hg. induction l as [|[k' v'] t IH]; cbn; [reflexivity|].
    destruct (eqb k' k) eqn:E.
    - assert (k' = k) by now apply eqb_eq. subst k'. rewrite Hg. cbn. now rewrite E.
    - destruct (g k'); cbn; [rewrite E|]; exact IH.
  Qed.

  Lemma al_put_filter (l : list (K * V)) k v :
    filter (fun e => g (fst e)) (al_put eqb l k v)
    = if g k then al_put eqb (filter (fun e => g (fst e)) l) k v else filter (fun e => g (fst e)) l.
  Proof.
    induction l as [|[k' v'] t IH]; cbn; [now destruct (g k)|].
    destruct (eqb k' k) eqn:E; cbn.
    - assert (k' = k) by now apply eqb_eq. subst k'. destruct (g k); cbn; now rewrite ?E.
    - rewrite IH. destruct (g k), (g k'); cbn; now rewrite ?E.
  Qed.

  Lemma al_remove_filter (l : list (K * V)) k :
    filter (fun e => g (fst e)) (al_remove eqb l k)
    = if g k then al_remove eqb (filter (fun e => g (fst e)) l) k else filter (fun e => g (fst e)) l.
  Proof.
    induction l as [|[k' v'] t IH]; cbn; [now destruct (g k)|].
    destruct (eqb k' k) eqn:E; cbn.
    - assert (k' = k) by now apply eqb_eq. subst k'. rewrite IH. destruct (g k); cbn; now rewrite ?E.
    - rewrite IH. destruct (g k), (g k'); cbn; now rewrite ?E.
  Qed.

  Lemma al_put_Forall (P : K * V -> Prop) (l : list (K * V)) k v :
    Forall P l -> P (k, v) -> Forall P (al_put eqb l k v).
  Proof.
    intros H Hp. induction H as [|[k' v'] t Hx Ht IH]; cbn; [now constructor|].
    destruct (eqb k' k); constructor; auto.
  Qed.

  Lemma al_remove_Forall (P : K * V -> Prop) (l : list (K * V)) k :
    Forall P l -> Forall P (al_remove eqb l k).
  Proof.
    intros H. induction H as [|[k' v'] t Hx _ IH]; cbn; [constructor|].
    destruct (eqb k' k); [exact IH|constructor; auto].
  Qed.
End AssocFacts.

Lemma filter_comm {A} (f g : A -> bool) l : filter f (filter g l) = filter g (filter f l).
Proof.
  induction l as [|x l IH]; cbn; [reflexivity|].
  destruct (g x) eqn:G, (f x) eqn:F; cbn; rewrite ?G, ?F, IH; reflexivity.
Qed.

Lemma filter_disjoint {A} (g h : A -> bool) l :
  (forall e, g e = true -> h e = false) -> filter g (filter (fun e => negb (h e)) l) = filter g l.
Proof.
  intros H. induction l as [|x l IH]; cbn; [reflexivity|].
  destruct (g x) eqn:G.
  - rewrite (H x G). cbn. rewrite G. now rewrite IH.
  - destruct (h x); cbn; rewrite ?G; exact IH.
Qed.

Lemma filter_implied {A} (g h : A -> bool) l :
  (forall e, g e = true -> h e = true) -> filter g (filter (fun e => negb (h e)) l) = [].
Proof.
  intros H. induction l as [|x l IH]; cbn; [reflexivity|].
  destruct (h x) eqn:Hx; cbn; [exact IH|].
  destruct (g x) eqn:G; [|exact IH]. rewrite (H x G) in Hx. discriminate.
Qed.

Lemma has_byte_In x b : has_byte x b = true <-> In x b.
Proof.
  induction b as [|y b IH]; cbn; [split; [discriminate|tauto]|].
  rewrite orb_true_iff, N.eqb_eq, IH. tauto.
Qed.

Lemma no_slash_b b : has_byte slash b = false -> no_slash b.
Proof. intros H Hin. apply has_byte_In in Hin. congruence. Qed.

Lemma bytes_eqb_refl a : bytes_eqb a a = true.
Proof. exact (Bytes.bytes_eqb_refl a). Qed.

Lemma plain_b_spec b : plain_b b = true <-> plain b.
Proof.
  unfold plain_b, plain.
  rewrite !andb_true_iff, !negb_true_iff, !bytes_eqb_false, <- not_true_iff_false, has_byte_In.
  now rewrite !and_assoc.
Qed.

Lemma user_ok_plain u : user_ok_b u = true -> plain u.
Proof. unfold user_ok_b. rewrite andb_true_iff. intros [H _]. now apply plain_b_spec. Qed.

Lemma app_slash_inj u u' c c' :
  ~ In slash u -> ~ In slash u' -> u ++ slash :: c = u' ++ slash :: c' -> u = u' /\ c = c'.
Proof.
  revert u'. induction u as [|x u IH]; intros [|y u'] Hu Hu' E; cbn in *; inversion E; subst.
  - auto.
  - destruct Hu'. now left.
  - destruct Hu. now left.
  - destruct (IH u') as [-> ->]; auto.
Qed.

Lemma rec_key_inj u u' c c' :
  no_slash u -> no_slash u' -> rec_key u c = rec_key u' c' -> u = u' /\ c = c'.
Proof. apply app_slash_inj. Qed.

Lemma rec_key_prefix u c : is_prefix (user_prefix u) (rec_key u c) = true.
Proof.
  apply is_prefix_spec. exists c. unfold rec_key, user_prefix. now rewrite <- app_assoc.
Qed.

Lemma prefix_eqb u u' c' : no_slash u -> no_slash u' ->
  is_prefix (user_prefix u) (rec_key u' c') = bytes_eqb u' u.
Proof.
  intros Hu Hu'. apply eq_true_iff_eq. rewrite is_prefix_spec, bytes_eqb_eq. split.
  - intros [r H]. unfold rec_key, user_prefix in H. rewrite <- app_assoc in H.
    now apply app_slash_inj in H.
  - intros ->. apply is_prefix_spec, rec_key_prefix.
Qed.

Lemma path_eqb_eq a b : path_eqb a b = true <-> a = b.
Proof.
  revert b. induction a as [|x a IH]; intros [|y b]; cbn; try (split; congruence).
  rewrite andb_true_iff, bytes_eqb_eq, IH. split; [intros [-> ->]; reflexivity|intros H; inversion H; auto].
Qed.

Lemma strictly_below_spec p d : strictly_below p d = true <-> exists x r, d = p ++ x :: r.
Proof.
  revert d. induction p as [|y p IH]; intros [|z d]; cbn.
  - split; [discriminate|]. intros (x & r & H). discriminate.
  - split; [eauto|reflexivity].
  - split; [discriminate|]. intros (x & r & H). discriminate.
  - rewrite andb_true_iff, bytes_eqb_eq, IH. split.
    + intros [-> (x & r & ->)]. eauto.
    + intros (x & r & H). inversion H; subst. eauto.
Qed.

Lemma split_no_slash b : ~ In slash b -> split_slash b = [b].
Proof.
  induction b as [|x b IH]; cbn; [reflexivity|]. intros H.
  destruct (x =? slash) eqn:E.
  - apply N.eqb_eq in E. subst. exfalso. apply H. now left.
  - rewrite IH; [reflexivity|]. intros X. apply H. now right.
Qed.

Lemma push_plain stk s : plain s -> push_seg stk s = s :: stk.
Proof.
  intros (_ & H1 & H2 & H3). unfold push_seg.
  apply bytes_eqb_false in H1, H2, H3. now rewrite H1, H2, H3.
Qed.

Lemma fold_push_plain l stk : Forall plain l -> fold_left push_seg l stk = rev l ++ stk.
Proof.
  revert stk. induction l as [|s l IH]; intros stk H; cbn; [reflexivity|].
  inversion H; subst. rewrite push_plain by assumption. rewrite IH by assumption.
  now rewrite <- app_assoc.
Qed.

Lemma flat_split_plain l : Forall plain l -> flat_map split_slash l = l.
Proof.
  induction 1 as [|s l Hs _ IH]; cbn; [reflexivity|].
  rewrite split_no_slash by exact (proj1 Hs). cbn. now rewrite IH.
Qed.

(* Clean: plain segments are kept, "." is dropped, ".." cancels the plain segment before it *)
Lemma clean_app_plain a l : Forall plain l -> clean_segs (a ++ l) = clean_segs a ++ l.
Proof.
  intros H. unfold clean_segs. rewrite fold_left_app, fold_push_plain by exact H.
  now rewrite rev_app_distr, rev_involutive.
Qed.

Lemma clean_drop_dot a b : clean_segs (a ++ dot :: b) = clean_segs (a ++ b).
Proof. unfold clean_segs. rewrite !fold_left_app. reflexivity. Qed.

Lemma clean_drop_dotdot a s b : plain s -> clean_segs (a ++ s :: dotdot :: b) = clean_segs (a ++ b).
Proof. intros Hs. unfold clean_segs. rewrite !fold_left_app. cbn [fold_left]. now rewrite (push_plain _ s Hs). Qed.

(* the cleaned root directory *)
Definition base (root : bytes) : path := clean_segs (split_slash root).

Lemma join_plain root l : Forall plain l -> join_clean (root :: l) = base root ++ l.
Proof.
  intros H. unfold join_clean. cbn [flat_map]. rewrite flat_split_plain by exact H.
  now apply clean_app_plain.
Qed.

Lemma plain_ucols : plain ucols.
Proof. apply plain_b_spec. vm_compute. reflexivity. Qed.

Lemma user_dir_plain root u : plain u -> user_dir root u = base root ++ [ucols; u].
Proof. intros. apply join_plain. auto using plain_ucols. Qed.
Lemma collection_dir_plain root u c : plain u -> plain c ->
  collection_dir root u c = base root ++ [ucols; u; c].
Proof. intros. apply join_plain. auto using plain_ucols. Qed.
Lemma shard_dir_plain root u c s : plain u -> plain c -> plain s ->
  shard_dir root u c s = base root ++ [ucols; u; c; s].
Proof. intros. apply join_plain. auto 6 using plain_ucols. Qed.

(* a collection directory of user a, and whatever is below it, lies below the directory of
   user b iff a = b *)
Lemma below_user_dir root b a c t : plain b ->
  strictly_below (user_dir root b) (base root ++ ucols :: a :: c :: t) = bytes_eqb a b.
Proof.
  intros Hb. rewrite user_dir_plain by assumption.
  apply eq_true_iff_eq. rewrite strictly_below_spec, bytes_eqb_eq. split.
  - intros (x & r & E). rewrite <- app_assoc in E. apply app_inv_head in E. now inversion E.
  - intros <-. exists c, t. now rewrite <- app_assoc.
Qed.

Lemma shard_below root b a c s : plain b -> plain a -> plain c -> plain s ->
  strictly_below (user_dir root b) (shard_dir root a c s) = bytes_eqb a b.
Proof. intros. rewrite shard_dir_plain by assumption. now apply below_user_dir. Qed.

Lemma paths_disjoint root u u' c d : plain u -> plain u' -> plain c -> u <> u' ->
  d = collection_dir root u c \/ strictly_below (collection_dir root u c) d = true ->
  d <> user_dir root u' /\ strictly_below (user_dir root u') d = false.
Proof.
  intros Hu Hu' Hc Hn Hd. rewrite collection_dir_plain in Hd by assumption.
  assert (exists t, d = base root ++ ucols :: u :: c :: t) as [t ->].
  { destruct Hd as [->|Hd]; [now exists []|].
    apply strictly_below_spec in Hd. destruct Hd as (x & r & ->). exists (x :: r).
    now rewrite <- app_assoc. }
  split.
  - rewrite user_dir_plain by assumption. intros E. apply app_inv_head in E. discriminate.
  - rewrite below_user_dir by assumption. apply bytes_eqb_false. congruence.
Qed.

Lemma delete_shards_other root u u' c (f : fs) : plain u -> plain u' -> plain c -> u <> u' ->
  filter (below_b (user_dir root u')) (delete_collection_shards f root u c)
  = filter (below_b (user_dir root u')) f.
Proof.
  intros Hu Hu' Hc Hn. apply filter_disjoint. intros e He. unfold below_b in *.
  destruct (strictly_below (collection_dir root u c) (fst e)) eqn:E; [|reflexivity].
  destruct (paths_disjoint root u u' c (fst e)) as [_ H]; auto. congruence.
Qed.

Lemma delete_shards_own p root u c (f : fs) :
  filter (below_b p) (delete_collection_shards f root u c)
  = delete_collection_shards (filter (below_b p) f) root u c.
Proof. apply filter_comm. Qed.

(* "." and ".." change the directory level *)
Lemma dot_alias root b : collection_dir root dot b = user_dir root b.
Proof.
  unfold collection_dir, user_dir, join_clean. cbn [flat_map].
  change (split_slash dot) with [dot]. rewrite !app_nil_r.
  change ([dot] ++ split_slash b) with (dot :: split_slash b).
  rewrite !app_assoc. apply clean_drop_dot.
Qed.

Lemma dotdot_ucols root : collection_dir root dotdot ucols = base root ++ [ucols].
Proof.
  unfold collection_dir, join_clean. cbn [flat_map].
  rewrite (split_no_slash ucols) by exact (proj1 plain_ucols).
  change (split_slash dotdot) with [dotdot]. cbn [app].
  rewrite clean_drop_dotdot by exact plain_ucols.
  apply (clean_app_plain _ [ucols]). auto using plain_ucols.
Qed.

Lemma dotdot_wipes root b (f : fs) : plain b ->
  filter (below_b (user_dir root b)) (delete_collection_shards f root dotdot ucols) = [].
Proof.
  intros Hb. apply filter_implied. intros e He. unfold below_b in *.
  rewrite dotdot_ucols. rewrite user_dir_plain in He by assumption.
  apply strictly_below_spec in He. destruct He as (x & r & ->).
  apply strictly_below_spec. exists b, (x :: r). now rewrite <- !app_assoc.
Qed.

Lemma valid_col_plain v c : valid_col v c = true -> plain c.
Proof.
  (* both API versions: the alphabet has no '/', the length is at least 3 *)
  unfold valid_col.
  destruct (v =? 1); intros H; apply andb_true_iff in H; destruct H as [HL HA];
    (split; [intros Hin; rewrite forallb_forall in HA; apply HA in Hin; discriminate
            |repeat split; intros ->; discriminate]).
Qed.

(* in a well-formed database the record under the key of (u, c) is a record of (u, c) *)
Lemma get_wf st u c r : wf st -> no_slash u -> get_collection (st_db st) u c = Some r ->
  r_user r = u /\ r_col r = c /\ plain c /\ Forall plain (r_shards r).
Proof.
  intros Hwf Hu Hg. apply (al_get_In bytes_eqb bytes_eqb_eq) in Hg.
  unfold wf in Hwf. rewrite Forall_forall in Hwf. apply Hwf in Hg.
  destruct Hg as (Hk & Hpu & Hpc & Hps). cbn [fst snd] in *.
  apply rec_key_inj in Hk; [|exact Hu|exact (proj1 Hpu)]. destruct Hk as [-> ->]. auto.
Qed.

Lemma get_through_scan d u c :
  get_collection d u c = db_get (scan d (user_prefix u)) (rec_key u c).
Proof.
  symmetry. apply (al_get_filter bytes_eqb bytes_eqb_eq (is_prefix (user_prefix u))), rec_key_prefix.
Qed.

Lemma view_eq_iff root u st1 st2 :
  view_of root u st1 = view_of root u st2 <->
  scan (st_db st1) (user_prefix u) = scan (st_db st2) (user_prefix u) /\
  filter (below_b (user_dir root u)) (st_fs st1) = filter (below_b (user_dir root u)) (st_fs st2).
Proof.
  unfold view_of, user_count. split; [intros H; now inversion H|]. now intros [-> ->].
Qed.

(* everything the node database tells u is read off the scan of u *)
Lemma scan_reads d1 d2 u : scan d1 (user_prefix u) = scan d2 (user_prefix u) ->
  (forall c, get_collection d1 u c = get_collection d2 u c) /\
  list_collections d1 u = list_collections d2 u /\
  user_count d1 u = user_count d2 u.
Proof.
  intros Hs. unfold list_collections, user_count. rewrite Hs. repeat split.
  intros c. rewrite !get_through_scan. now rewrite Hs.
Qed.

Lemma scan_put d a b c r : no_slash a -> no_slash b ->
  scan (db_put d (rec_key a c) r) (user_prefix b)
  = if bytes_eqb a b then db_put (scan d (user_prefix b)) (rec_key a c) r else scan d (user_prefix b).
Proof.
  intros Ha Hb. rewrite <- (prefix_eqb b a c) by assumption.
  apply (al_put_filter bytes_eqb bytes_eqb_eq (is_prefix (user_prefix b))).
Qed.

Lemma scan_remove d a b c : no_slash a -> no_slash b ->
  scan (db_remove d (rec_key a c)) (user_prefix b)
  = if bytes_eqb a b then db_remove (scan d (user_prefix b)) (rec_key a c) else scan d (user_prefix b).
Proof.
  intros Ha Hb. rewrite <- (prefix_eqb b a c) by assumption.
  apply (al_remove_filter bytes_eqb bytes_eqb_eq (is_prefix (user_prefix b))).
Qed.

Lemma below_get_own (f : fs) p q : strictly_below p q = true ->
  fs_get (filter (below_b p) f) q = fs_get f q.
Proof. apply (al_get_filter path_eqb path_eqb_eq (strictly_below p)). Qed.

Lemma below_put (f : fs) p q x :
  filter (below_b p) (fs_put f q x)
  = if strictly_below p q then fs_put (filter (below_b p) f) q x else filter (below_b p) f.
Proof. apply (al_put_filter path_eqb path_eqb_eq (strictly_below p)). Qed.

Lemma below_mkdir (f : fs) p q :
  filter (below_b p) (fs_mkdir f q)
  = if strictly_below p q then fs_mkdir (filter (below_b p) f) q else filter (below_b p) f.
Proof.
  unfold fs_mkdir. destruct (strictly_below p q) eqn:E.
  - rewrite below_get_own by exact E. destruct (fs_get f q); [reflexivity|]. now rewrite below_put, E.
  - destruct (fs_get f q); [reflexivity|]. now rewrite below_put, E.
Qed.

Lemma wf_put st u c sh (f : fs) : wf st -> plain u -> plain c -> Forall plain sh ->
  wf (mkst (db_put (st_db st) (rec_key u c) (mkrec u c sh)) f).
Proof. intros Hwf Hu Hc Hsh. apply al_put_Forall; [exact Hwf|]. unfold rec_wf. auto. Qed.
Lemma wf_remove st k (f : fs) : wf st -> wf (mkst (db_remove (st_db st) k) f).
Proof. apply al_remove_Forall. Qed.
Lemma wf_fs st (f : fs) : wf st -> wf (mkst (st_db st) f).
Proof. intros H. exact H. Qed.

Lemma has_shard_plain r s : Forall plain (r_shards r) -> has_shard r s = true -> plain s.
Proof.
  intros H Hs. apply existsb_exists in Hs. destruct Hs as (x & Hx & E).
  apply bytes_eqb_eq in E. subst x. rewrite Forall_forall in H. auto.
Qed.

(* Every request on an existing collection goes through [with_col].  When two states hold the
   same record for (u, c), the two runs take the same branch; in a well-formed database that
   record is (u, c, shards) with plain ids, so the continuations are only compared on such records. *)
Lemma with_col_rel (R : state * answer -> state * answer -> Prop) u v c st1 st2 f1 f2 :
  no_slash u -> wf st2 ->
  get_collection (st_db st1) u c = get_collection (st_db st2) u c ->
  (forall a, R (st1, a) (st2, a)) ->
  (forall sh, plain c -> Forall plain sh -> R (f1 (mkrec u c sh)) (f2 (mkrec u c sh))) ->
  R (with_col u v c st1 f1) (with_col u v c st2 f2).
Proof.
  intros Hu Hwf Hg Hst Hf. unfold with_col. destruct (valid_uri v c); cbn [negb]; [|apply Hst].
  rewrite Hg. destruct (get_collection (st_db st2) u c) as [[u' c' sh]|] eqn:E; [|apply Hst].
  destruct (get_wf st2 u c _ Hwf Hu E) as (Eu & Ec & Hc & Hsh). cbn in Eu, Ec. subst u' c'.
  now apply Hf.
Qed.

Lemma with_col_ind (P : state * answer -> Prop) u v c st f :
  no_slash u -> wf st -> (forall a, P (st, a)) ->
  (forall sh, plain c -> Forall plain sh -> P (f (mkrec u c sh))) ->
  P (with_col u v c st f).
Proof. intros Hu Hwf. now apply (with_col_rel (fun x _ => P x) u v c st st f f). Qed.

Lemma step_wf root a o st : plain a -> wf st -> op_ok o -> wf (fst (step root a o st)).
Proof.
  intros Ha Hwf Hok.
  destruct o as [v c maxc| |v c|v c|v c s|v c s x|v c s|v c]; cbn [step];
    try (apply (with_col_ind (fun x => wf (fst x))); [exact (proj1 Ha)|exact Hwf|intros ?; exact Hwf|];
         intros sh Hc Hsh; cbn [r_user r_col r_shards fst]).
  - destruct (valid_col v c) eqn:Ev; cbn [negb]; [|exact Hwf].
    destruct (db_get _ _); [exact Hwf|]. destruct (_ <=? _); [exact Hwf|].
    apply wf_put; [exact Hwf|exact Ha|exact (valid_col_plain v c Ev)|constructor].
  - exact Hwf.
  - exact Hwf.
  - now apply wf_remove.
  - apply wf_put; [exact Hwf|exact Ha|exact Hc|]. apply Forall_app. split; [exact Hsh|]. now constructor.
  - destruct (has_shard _ s); [now apply wf_fs|exact Hwf].
  - destruct (has_shard _ s); exact Hwf.
  - now apply wf_fs.
Qed.

Lemma step_other root a b o st : plain a -> plain b -> a <> b -> wf st -> op_ok o ->
  view_of root b (fst (step root a o st)) = view_of root b st.
Proof.
  intros Ha Hb Hn Hwf Hok. pose proof (proj1 Ha) as Hna. pose proof (proj1 Hb) as Hnb.
  pose proof (proj2 (bytes_eqb_false a b) Hn) as En.
  destruct o as [v c maxc| |v c|v c|v c s|v c s x|v c s|v c]; cbn [step];
    try (apply (with_col_ind (fun x => view_of root b (fst x) = _)); [exact Hna|exact Hwf|reflexivity|];
         intros sh Hc Hsh; cbn [r_user r_col r_shards]).
  - destruct (valid_col v c); cbn [negb]; [|reflexivity].
    destruct (db_get _ _); [reflexivity|]. destruct (_ <=? _); [reflexivity|].
    apply view_eq_iff. split; [|reflexivity]. cbn [fst st_db]. now rewrite scan_put, En.
  - reflexivity.
  - reflexivity.
  - apply view_eq_iff. cbn [fst st_db st_fs]. split; [now rewrite scan_remove, En|].
    destruct sh; [reflexivity|]. now apply delete_shards_other.
  - apply view_eq_iff. cbn [fst st_db st_fs]. split; [now rewrite scan_put, En|].
    now rewrite below_mkdir, shard_below, En.
  - destruct (has_shard _ s) eqn:Es; [|reflexivity]. apply has_shard_plain in Es; [|exact Hsh].
    apply view_eq_iff. split; [reflexivity|]. cbn [fst st_fs]. now rewrite below_put, shard_below, En.
  - destruct (has_shard _ s); reflexivity.
  - apply view_eq_iff. split; [reflexivity|]. now apply delete_shards_other.
Qed.

Lemma run_wf root a os : plain a -> forall st, wf st -> Forall op_ok os -> wf (run root a os st).
Proof.
  intros Ha. induction os as [|o os IH]; intros st Hwf Hok; cbn; [exact Hwf|].
  inversion Hok; subst. apply IH; [|assumption]. now apply step_wf.
Qed.

Lemma run_other root a b os : plain a -> plain b -> a <> b ->
  forall st, wf st -> Forall op_ok os -> view_of root b (run root a os st) = view_of root b st.
Proof.
  intros Ha Hb Hn. induction os as [|o os IH]; intros st Hwf Hok; cbn; [reflexivity|].
  inversion Hok; subst. rewrite IH; [|now apply step_wf|assumption]. now apply step_other.
Qed.

(* the X-User-Id check lets a whole history through or stops all of it *)
Lemma http_run_eq root a os st :
  http_run root a os st = if user_ok_b a then run root a os st else st.
Proof.
  revert st. induction os as [|o os IH]; intros st; cbn; [now destruct (user_ok_b a)|].
  rewrite IH. unfold http_step. now destruct (user_ok_b a).
Qed.

Lemma step_own root b o st1 st2 : plain b -> wf st2 -> op_ok o ->
  view_of root b st1 = view_of root b st2 ->
  snd (step root b o st1) = snd (step root b o st2) /\
  view_of root b (fst (step root b o st1)) = view_of root b (fst (step root b o st2)).
Proof.
  intros Hb Hwf Hok Hv. pose proof (proj1 Hb) as Hnb.
  destruct (proj1 (view_eq_iff _ _ _ _) Hv) as [Hs Hf].
  destruct (scan_reads _ _ _ Hs) as (Hget & Hlist & Hcount).
  destruct o as [v c maxc| |v c|v c|v c s|v c s x|v c s|v c]; cbn [step];
    try (apply (with_col_rel (fun x y => snd x = snd y /\ view_of root b (fst x) = view_of root b (fst y)));
         [exact Hnb|exact Hwf|apply Hget|auto|]; intros sh Hc Hsh; cbn [r_user r_col r_shards]).
  - destruct (valid_col v c); cbn [negb]; [|auto].
    rewrite (Hget c : db_get _ _ = db_get _ _), Hcount.
    destruct (db_get _ _); [auto|]. destruct (_ <=? _); [auto|].
    split; [reflexivity|]. apply view_eq_iff. split; [|exact Hf]. cbn [fst st_db].
    now rewrite !scan_put, bytes_eqb_refl, Hs.
  - cbn [fst snd]. now rewrite Hlist.
  - auto.
  - split; [reflexivity|]. apply view_eq_iff. cbn [fst st_db st_fs].
    split; [now rewrite !scan_remove, bytes_eqb_refl, Hs|].
    destruct sh; [exact Hf|]. now rewrite !delete_shards_own, Hf.
  - split; [reflexivity|]. apply view_eq_iff. cbn [fst st_db st_fs].
    split; [now rewrite !scan_put, bytes_eqb_refl, Hs|].
    now rewrite !below_mkdir, shard_below, bytes_eqb_refl, Hf.
  - destruct (has_shard _ s) eqn:Es; [|auto]. apply has_shard_plain in Es; [|exact Hsh].
    split; [reflexivity|]. apply view_eq_iff. split; [exact Hs|]. cbn [fst st_fs].
    now rewrite !below_put, shard_below, bytes_eqb_refl, Hf.
  - destruct (has_shard _ s) eqn:Es; [|auto]. apply has_shard_plain in Es; [|exact Hsh].
    split; [|exact Hv]. cbn [snd].
    rewrite <- (below_get_own (st_fs st1) (user_dir root b)), <- (below_get_own (st_fs st2) (user_dir root b)), Hf;
      [reflexivity| |]; now rewrite shard_below, bytes_eqb_refl.
  - split; [reflexivity|]. apply view_eq_iff. split; [exact Hs|]. cbn [fst st_fs].
    now rewrite !delete_shards_own, Hf.
Qed.

Lemma interleaving_gen root b h : plain b ->
  Forall (fun e : bytes * op => plain (fst e) /\ op_ok (snd e)) h ->
  forall st1 st2, wf st1 -> wf st2 -> view_of root b st1 = view_of root b st2 ->
  of_user b (snd (run_all root h st1)) = snd (run_all root (of_user b h) st2) /\
  view_of root b (fst (run_all root h st1)) = view_of root b (fst (run_all root (of_user b h) st2)).
Proof.
  intros Hb Hh. unfold of_user.
  induction Hh as [|[u o] h [Hu Hok] _ IH]; intros st1 st2 Hwf1 Hwf2 Hv; [now split|].
  cbn [run_all filter fst snd] in *. destruct (bytes_eqb u b) eqn:E.
  - apply bytes_eqb_eq in E. subst u. cbn [run_all fst snd].
    destruct (step_own root b o st1 st2 Hb Hwf2 Hok Hv) as [-> Hv'].
    destruct (IH _ _ (step_wf root b o st1 Hb Hwf1 Hok) (step_wf root b o st2 Hb Hwf2 Hok) Hv') as [-> I2].
    now split.
  - apply bytes_eqb_false in E. apply IH; [now apply step_wf|exact Hwf2|].
    now rewrite step_other.
Qed.

(* "/r", "a", "a/b", "bob", "eve", "col", "ccc", "xyz", "s1", "s2", "s9" *)
Definition w_root : bytes := [47;114].
Definition w_a : bytes := [97].
Definition w_a_b : bytes := [97;47;98].
Definition w_bob : bytes := [98;111;98].
Definition w_eve : bytes := [101;118;101].
Definition w_col : bytes := [99;111;108].
Definition w_ccc : bytes := [99;99;99].
Definition w_xyz : bytes := [120;121;122].
Definition w_s1 : bytes := [115;49].
Definition w_s2 : bytes := [115;50].
Definition w_s9 : bytes := [115;57].
Definition w_empty : state := mkst [] [].

Lemma wf_empty : wf w_empty.
Proof. constructor. Qed.

Ltac plain_by_compute := apply plain_b_spec; vm_compute; reflexivity.
Ltac ops_ok := repeat (apply Forall_cons; [first [exact I | cbn; plain_by_compute]|]); apply Forall_nil.

(* user "bob" with a collection, a shard and a point in it; then the same for user "eve" *)
Definition w_bob_state : state :=
  run w_root w_bob [OCreate 2 w_col 3; OCreateShard 2 w_col w_s1; OWriteShard 2 w_col w_s1 7] w_empty.
Definition w_two_state : state :=
  run w_root w_eve [OCreate 1 w_xyz 3; OCreateShard 1 w_xyz w_s2; OWriteShard 1 w_xyz w_s2 5] w_bob_state.

Lemma wf_bob_state : wf w_bob_state.
Proof. apply run_wf; [plain_by_compute|exact wf_empty|ops_ok]. Qed.

Lemma wf_two_state : wf w_two_state.
Proof. apply run_wf; [plain_by_compute|exact wf_bob_state|ops_ok]. Qed.

(* user "." creates and deletes its collection "bob", which IS the directory of user "bob";
   user ".." does so with "userCollections", the directory that holds every user *)
Definition w_dot_ops : list op := [OCreate 2 w_bob 3; OCreateShard 2 w_bob w_s9; ODelete 2 w_bob].
Definition w_dotdot_ops : list op := [OCreate 1 ucols 3; OCreateShard 1 ucols w_s9; ODelete 1 ucols].
