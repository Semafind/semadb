(* Props_C06.v -- property C06: hybrid scores, field selection, sorting and
   paging behave as documented.  Statements about Model_C06.v (the model the
   replay Run_C06.v judges the real shard with), proved from the lemmas of
   Proofs_C06.v.

   Reading guide.
   * `merge_ranked is_or final children` is searchParallel's merge loop: the
     children's ranked lists are walked in sub-query order, `_and` drops ids
     outside `final`, entries are de-duplicated by id with `HybridScore +=`,
     the first non-nil Distance / Score is kept.  `contribs id children` are
     the entries carrying `id`, one per child that contains it, in child order;
     `sum_left [h1;h2;h3] = (h1 + h2) + h3` (Qplus, literally the order in which
     the code adds); `first_some` = first value that is not None.
   * `eval` evaluates a query tree to (matched set, ranked entries, leaf_order
     flag, unconsumed standalone answers); `eval_list` evaluates the children
     of a composite node left to right; `composite true qs = QOr qs`,
     `composite false qs = QAnd qs`.
   * `cmp_preorder cmp`: the three-way comparator is reflexive (Eq), flips
     under exchange of its arguments, and "not Gt" is transitive.
     `is_sorted_perm cmp l l'`: l' is a permutation of l in which no element is
     Gt its successor -- what ANY correct sort (stable or not) returns.
   * `key_of p d` = utils.AccessNestedProperty; `key_tie k a b`: both documents
     lack key k or both have it with CompareAny = 0.
   * `plain_paths paths`: no path is "*", no path has an empty segment, no
     path's segment list is a prefix of another's. *)
From Coq Require Import List NArith ZArith QArith Bool Lia Sorted Permutation.
From Semadb Require Import Bytes U64 Pack Value Obs Dyadic Model_C19 Model_C01 Model_C02 Model_C04 Model_C06 Model_C06M
  Run_C06 Proofs_C06.
Import ListNotations.
Open Scope N_scope.

Theorem c06_merge_spec : forall (is_or : bool) (final : list uuid) (children : list (list rk)),
  Forall (fun c => NoDup (rk_ids c)) children ->
  let res := merge_ranked is_or final children in
  NoDup (rk_ids res) /\                                                   (* each id once *)
  (forall id, In id (rk_ids res) <->                                      (* exactly the ids of the children (within final for _and) *)
              (exists c, In c children /\ In id (rk_ids c)) /\ (is_or = true \/ In id final)) /\
  (forall r, In r res ->
     let cs := contribs (k_id r) children in
     cs <> [] /\
     k_hybrid r = sum_left (map k_hybrid cs) /\                           (* literally ((h1 + h2) + h3) ... in child order *)
     (k_hybrid r == fold_right Qplus 0 (map k_hybrid cs))%Q /\            (* = the sum, as a rational number *)
     k_dist r = first_some (map k_dist cs) /\                             (* first non-nil distance *)
     k_score r = first_some (map k_score cs)).                            (* first non-nil score *)
Proof.
  intros is_or final children H res.
  split; [apply merge_ranked_nodup|]. split; [intros id; now apply merge_ranked_In|].
  intros r Hr cs. destruct (merge_ranked_entry _ _ _ _ H Hr) as (e & rest & E & ->).
  subst cs. rewrite E, fold_absorb_eq. cbn [k_hybrid k_dist k_score].
  repeat split; [discriminate|apply sum_left_Qeq].
Qed.
Print Assumptions c06_merge_spec.

Theorem c06_set_algebra : forall sc t live (is_or : bool) (qs : list query) (subs : list (list row)),
  (* exactly one sub-query: passed through unchanged (set, ranked list in its own order, leaf_order flag) *)
  (forall c, qs = [c] -> eval sc t live (composite is_or qs) subs = eval sc t live c subs) /\
  (* a child that cannot be evaluated makes the node fail *)
  (eval_list sc t live qs subs = None -> eval sc t live (composite is_or qs) subs = None) /\
  (* two or more: union / intersection of the children's sets, merge of their ranked lists, flag false *)
  (forall ss rks fls subs', eval_list sc t live qs subs = Some (ss, rks, fls, subs') ->
     length ss = length qs /\ length rks = length qs /\ length fls = length qs /\
     ((2 <= length qs)%nat ->
      exists final,
        eval sc t live (composite is_or qs) subs = Some (final, merge_ranked is_or final rks, false, subs') /\
        (forall id, In id final <->
                    if is_or then exists s, In s ss /\ In id s else forall s, In s ss -> In id s) /\
        (Forall (@NoDup uuid) ss -> NoDup final))).
Proof.
  intros sc t live is_or qs subs. split; [|split].
  - intros c ->. apply eval_single.
  - intros H. now rewrite eval_composite, H.
  - intros ss rks fls subs' H. destruct (eval_list_length _ _ _ _ _ _ _ _ _ H) as (L1 & L2 & L3).
    repeat (split; [assumption|]). intros Hlen. exists (set_combine is_or ss).
    split; [eapply eval_merge; eassumption|]. split; [|apply set_combine_nodup].
    intros id. destruct ss as [|s0 rest]; [rewrite <- L1 in Hlen; inversion Hlen|].
    rewrite set_combine_In. destruct is_or; [apply Exists_exists|apply Forall_forall].
Qed.
Print Assumptions c06_set_algebra.

(* eval_list is the left-to-right evaluation of the children, threading the recorded standalone answers *)
Theorem c06_eval_children : forall sc t live c r subs,
  eval_list sc t live [] subs = Some ([], [], [], subs) /\
  eval_list sc t live (c :: r) subs =
  match eval sc t live c subs with
  | None => None
  | Some (s, rkd, fl, subs') =>
      match eval_list sc t live r subs' with
      | None => None
      | Some (ss, rks, fls, subs'') => Some (s :: ss, rkd :: rks, fl :: fls, subs'')
      end
  end.
Proof. split; reflexivity. Qed.
Print Assumptions c06_eval_children.

Theorem c06_order_checker_correct : forall (A : Type) (cmp : A -> A -> comparison),
  cmp_preorder cmp ->
  forall l : list A,
    (* the reference order of Run_C06 is a correct sort ... *)
    is_sorted_perm cmp l (sort_by cmp l) /\
    (* ... and every correct sort agrees with it position by position up to ties *)
    forall l', is_sorted_perm cmp l l' ->
      length l' = length l /\
      forall (p : nat) (d : A), (p < length l)%nat -> cmp (nth p l' d) (nth p (sort_by cmp l) d) = Eq.
Proof.
  intros A cmp P l.
  pose proof (sort_by_perm cmp l) as Hp0. pose proof (sort_by_sorted cmp P l) as Hs0.
  split; [now split|]. intros l' [Hp Hs]. split; [symmetry; now apply Permutation_length|].
  intros p d Hlt. apply (sorted_perm_pointwise cmp P); try assumption.
  - now rewrite <- Hp.
  - now rewrite <- (Permutation_length Hp).
Qed.
Print Assumptions c06_order_checker_correct.

(* CompareAny: different kinds by kind number; within int / float / string by value; everything else equal;
   and it is a total preorder *)
Theorem c06_compare_any_preorder :
  cmp_preorder compare_any /\
  (forall a b, kind_of a <> kind_of b -> compare_any a b = Z.compare (kind_of a) (kind_of b)) /\
  (forall x y, compare_any (VInt x) (VInt y) = Z.compare x y) /\
  (forall x y, compare_any (VF64 x) (VF64 y) = Z.compare (f64_ord x) (f64_ord y)) /\
  (forall x y, compare_any (VF32 x) (VF32 y) = Z.compare (f32_ord x) (f32_ord y)) /\
  (forall x y, compare_any (VStr x) (VStr y) = lex_compare x y) /\
  (forall x y, compare_any (VBool x) (VBool y) = Eq) /\
  (forall x y, compare_any (VArr x) (VArr y) = Eq) /\
  (forall x y, compare_any (VMap x) (VMap y) = Eq) /\
  compare_any VNil VNil = Eq.
Proof. split; [exact compare_any_preorder|]. split; [exact compare_any_kinds|]. repeat split. Qed.
Print Assumptions c06_compare_any_preorder.

(* the comparators Run_C06 sorts with satisfy the hypotheses of c06_order_checker_correct *)
Theorem c06_sort_cmp_preorder : forall keys : list (bytes * bool), cmp_preorder (sort_cmp keys).
Proof. exact sort_cmp_preorder. Qed.
Print Assumptions c06_sort_cmp_preorder.

Theorem c06_desc_cmp_preorder : cmp_preorder desc_cmp.
Proof. exact (cmp_preorder_ext _ _ desc_cmp_compare (cmp_preorder_flip _ Qcompare_preorder)). Qed.
Print Assumptions c06_desc_cmp_preorder.

Theorem c06_missing_last :
  (* one key, either direction: the document lacking the key comes after the one having it *)
  (forall p desc a b, key_of p a = None -> key_of p b <> None ->
     sort_cmp [(p, desc)] a b = Gt /\ sort_cmp [(p, desc)] b a = Lt) /\
  (* several keys: after keys on which the two documents tie, the first key that exactly one of them has decides *)
  (forall pre p desc post a b,
     Forall (fun k => key_tie k a b) pre -> key_of p a = None -> key_of p b <> None ->
     sort_cmp (pre ++ (p, desc) :: post) a b = Gt /\ sort_cmp (pre ++ (p, desc) :: post) b a = Lt) /\
  (* a key both documents lack is skipped *)
  (forall p desc post a b, key_of p a = None -> key_of p b = None ->
     sort_cmp ((p, desc) :: post) a b = sort_cmp post a b).
Proof.
  split; [|split].
  - intros p desc. apply sort_cmp_missing.
  - intros pre p desc post a b Hpre Ha Hb. apply sort_cmp_eq_ties in Hpre.
    rewrite !sort_cmp_app, Hpre, (cmp_eq_sym _ (sort_cmp_preorder pre) _ _ Hpre).
    now apply sort_cmp_missing.
  - intros p desc post a b Ha Hb. unfold key_of in *. cbn [sort_cmp]. now rewrite Ha, Hb.
Qed.
Print Assumptions c06_missing_last.

(* the documents that compare Eq are exactly those that tie on every key *)
Theorem c06_sort_ties : forall keys a b, sort_cmp keys a b = Eq <-> Forall (fun k => key_tie k a b) keys.
Proof. exact sort_cmp_eq_ties. Qed.
Print Assumptions c06_sort_ties.

Theorem c06_pages_partition : forall (A : Type) (xs : list A) (o l : N),
  0 < l ->
  (forall l', 0 < l' -> page o l xs ++ page (o + l) l' xs = page o (l + l') xs) /\
  page o l xs ++ page (o + l) 0 xs = page o 0 xs /\
  (forall n, concat (map (fun i => page (N.of_nat i * l) l xs) (seq 0 n)) = firstn (n * N.to_nat l) xs) /\
  (forall n, (length xs <= n * N.to_nat l)%nat ->
             concat (map (fun i => page (N.of_nat i * l) l xs) (seq 0 n)) = xs).
Proof.
  intros A xs o l Hl. split; [|split; [|split]].
  - intros l' Hl'. now apply page_add.
  - now apply page_add_rest.
  - intros n. now apply pages_concat.
  - intros n Hn. now apply pages_cover.
Qed.
Print Assumptions c06_pages_partition.

Theorem c06_page_beyond_end : forall (A : Type) (o l : N) (xs : list A),
  (length xs <= N.to_nat o)%nat -> page o l xs = [].
Proof. intros A o l xs H. unfold page. rewrite skipn_all2 by assumption. apply firstn_nil. Qed.
Print Assumptions c06_page_beyond_end.

Theorem c06_page_limit_zero : forall (A : Type) (o : N) (xs : list A), page o 0 xs = skipn (N.to_nat o) xs.
Proof. exact @page_zero. Qed.
Print Assumptions c06_page_limit_zero.

(* page = the Go slice finalResults[min(off,len) : min(off+limit,len)], with limit 0 replaced by len *)
Theorem c06_page_is_slice : forall (A : Type) (o l : N) (xs : list A),
  let len := length xs in
  let lim := if l =? 0 then len else N.to_nat l in
  length (page o l xs) = (Nat.min (N.to_nat o + lim) len - Nat.min (N.to_nat o) len)%nat /\
  forall i, (i < length (page o l xs))%nat -> nth_error (page o l xs) i = nth_error xs (N.to_nat o + i).
Proof.
  intros A o l xs len lim. unfold page. fold len. fold lim. split.
  - rewrite firstn_length, skipn_length. fold len. lia.
  - intros i Hi. rewrite firstn_length in Hi.
    rewrite nth_error_firstn_lt by lia. apply ListFacts.nth_error_skipn.
Qed.
Print Assumptions c06_page_is_slice.

Theorem c06_select_exact :
  (forall paths d r, plain_paths paths -> select_doc paths d = Some r ->
     (* every selected path that is stored comes back with exactly the stored subtree *)
     (forall p v, In p paths -> query_path (split_dots p) (VMap d) = QFound v ->
                  query_path (split_dots p) (VMap r) = QFound v) /\
     (* a selected path that is not stored is not there *)
     (forall p, In p paths -> query_path (split_dots p) (VMap d) = QAbsent ->
                query_path (split_dots p) (VMap r) = QAbsent) /\
     (* nothing else: every top-level key of the answer starts a selected, stored path *)
     (forall k, In k (map fst r) ->
                exists p v, In p paths /\ query_path (split_dots p) (VMap d) = QFound v /\
                            hd [] (split_dots p) = k)) /\
  (* "*" alone: the whole document, as a map *)
  (forall d, NoDup (map fst d) ->
     exists r, select_doc [star] d = Some r /\ doc_eqb r d = true /\ doc_eqb d r = true).
Proof.
  split; [|exact select_star].
  intros paths d r PP H. destruct (select_go_inv paths d [] r PP H) as (A & _ & D).
  split; [exact A|]. split.
  - intros p Hin Hq. rewrite (select_go_absent paths d [] r p PP H Hin Hq).
    destruct PP as [HF _]. rewrite Forall_forall in HF. apply query_empty, (HF p Hin).
  - intros k Hk. destruct (D k Hk) as [[]|H1]. exact H1.
Qed.
Print Assumptions c06_select_exact.

Definition ex_show (l : list rk) := map (fun r => (k_id r, k_hybrid r, k_dist r, k_score r)) l.
Definition ex_c1 := [mkRk [1] (1#2) (Some 5) None; mkRk [2] 1 (Some 7) None].
Definition ex_c2 := [mkRk [2] 3 None (Some 9); mkRk [3] 2 None (Some 4)].
Definition ex_c3 := [mkRk [3] (-1) (Some 8) None; mkRk [2] (1#4) (Some 6) (Some 1)].

Example ex_merge_hyp : Forall (fun c => NoDup (rk_ids c)) [ex_c1; ex_c2; ex_c3].
Proof. repeat constructor; cbn; intuition discriminate. Qed.
(* _and with final = {2}: id 2 gets 1 + 3 + 1/4, the first distance (7) and the first score (9) *)
Example ex_merge_and : ex_show (merge_ranked false [[2]] [ex_c1; ex_c2; ex_c3]) = [([2], 17 # 4, Some 7, Some 9)].
Proof. reflexivity. Qed.
Example ex_merge_or : ex_show (merge_ranked true [] [ex_c1; ex_c2; ex_c3]) =
  [([1], 1 # 2, Some 5, None); ([2], 17 # 4, Some 7, Some 9); ([3], 1%Q, Some 8, Some 4)].
Proof. reflexivity. Qed.
Example ex_contribs : map k_hybrid (contribs [2] [ex_c1; ex_c2; ex_c3]) = [1%Q; 3%Q; 1 # 4].
Proof. reflexivity. Qed.

(* a ranking leaf (standalone answer: ids 2 and 3 at distances 1.0 and 2.0, hybrid -1.0 and -2.0) and a filter *)
Definition ex_live : store := [([1], []); ([2], []); ([3], []); ([4], [])].
Definition ex_rows := [mkRow [2] None (Some 1065353216) None 3212836864; mkRow [3] None (Some 1073741824) None 3221225472].
Definition ex_children := [QFlat [102] [] 75 None None; QIdAny [[1]; [2]]].
Example ex_eval_list : exists rks fls,
  eval_list [] [] ex_live ex_children [ex_rows] = Some ([[[2]; [3]]; [[1]; [2]]], rks, fls, []).
Proof. eexists. eexists. reflexivity. Qed.
Example ex_eval_and : option_map (fun x => fst (fst (fst x))) (eval [] [] ex_live (QAnd ex_children) [ex_rows]) = Some [[2]].
Proof. reflexivity. Qed.
Example ex_eval_or : option_map (fun x => fst (fst (fst x))) (eval [] [] ex_live (QOr ex_children) [ex_rows]) = Some [[2]; [3]; [1]].
Proof. reflexivity. Qed.
Example ex_eval_single :
  option_map (fun x => (map k_id (snd (fst (fst x))), snd (fst x)))
             (eval [] [] ex_live (QOr [QFlat [102] [] 75 None None]) [ex_rows]) = Some ([[2]; [3]], true).
Proof. reflexivity. Qed.

(* sorting: "i" descending; dA and dC tie, dB lacks the key *)
Definition ex_dA : doc := [([105], VInt 3); ([115], VStr [97])].
Definition ex_dB : doc := [([115], VStr [98])].
Definition ex_dC : doc := [([105], VInt 3); ([115], VStr [99])].
Definition ex_dD : doc := [([105], VInt 1)].
Definition ex_keys : list (bytes * bool) := [([105], true)].
Example ex_sort : sort_by (sort_cmp ex_keys) [ex_dA; ex_dB; ex_dC; ex_dD] = [ex_dA; ex_dC; ex_dD; ex_dB].
Proof. reflexivity. Qed.
(* another correct (unstable) result: the tied documents exchanged *)
Example ex_sorted_perm : is_sorted_perm (sort_cmp ex_keys) [ex_dA; ex_dB; ex_dC; ex_dD] [ex_dC; ex_dA; ex_dD; ex_dB].
Proof.
  split.
  - apply perm_trans with (l' := [ex_dA; ex_dC; ex_dB; ex_dD]).
    + apply perm_skip. apply perm_swap.
    + apply perm_trans with (l' := [ex_dC; ex_dA; ex_dB; ex_dD]); [apply perm_swap|].
      do 2 apply perm_skip. apply perm_swap.
  - repeat constructor; unfold cle; cbn; discriminate.
Qed.
Example ex_position_check :
  map (fun p => sort_cmp ex_keys (nth p [ex_dC; ex_dA; ex_dD; ex_dB] []) (nth p (sort_by (sort_cmp ex_keys) [ex_dA; ex_dB; ex_dC; ex_dD]) []))
      [0%nat; 1%nat; 2%nat; 3%nat] = [Eq; Eq; Eq; Eq].
Proof. reflexivity. Qed.
Example ex_missing_last_both_directions :
  sort_cmp [([105], true)] ex_dB ex_dD = Gt /\ sort_cmp [([105], false)] ex_dB ex_dD = Gt /\
  key_of [105] ex_dB = None /\ key_of [105] ex_dD = Some (VInt 1).
Proof. repeat split. Qed.
Example ex_second_key_decides :
  key_tie ([105], true) ex_dA ex_dC /\ sort_cmp [([105], true); ([109], false); ([115], true)] ex_dA ex_dC = Gt.
Proof. split; reflexivity. Qed.
Example ex_mixed_kinds : compare_any (VInt 100) (VF64 0) = Lt /\ compare_any (VStr [97]) (VInt 5) = Gt /\
                         compare_any (VBool true) (VBool false) = Eq.
Proof. repeat split. Qed.

(* pages inside the list, across its end, past its end and with limit 0; consecutive pages cover the list *)
Example ex_page : page 2 3 [0; 1; 2; 3; 4; 5; 6; 7; 8; 9] = [2; 3; 4] /\
                  page 8 3 [0; 1; 2; 3; 4; 5; 6; 7; 8; 9] = [8; 9] /\
                  page 12 3 [0; 1; 2; 3; 4; 5; 6; 7; 8; 9] = [] /\
                  page 7 0 [0; 1; 2; 3; 4; 5; 6; 7; 8; 9] = [7; 8; 9].
Proof. repeat split. Qed.
Example ex_pages_cover :
  concat (map (fun i => page (N.of_nat i * 3) 3 [0; 1; 2; 3; 4; 5; 6; 7; 8; 9]) (seq 0 4)) = [0; 1; 2; 3; 4; 5; 6; 7; 8; 9].
Proof. reflexivity. Qed.

(* selection: {"i":1, "nested":{"n":2,"deep":{"s":"x"}}, "e":true} *)
Definition ex_nested : bytes := [110; 101; 115; 116; 101; 100].
Definition ex_doc : doc :=
  [([105], VInt 1); (ex_nested, VMap [([110], VInt 2); ([100; 101; 101; 112], VMap [([115], VStr [120])])]); ([101], VBool true)].
Definition ex_p_nested_n : bytes := ex_nested ++ [46; 110].                           (* "nested.n" *)
Definition ex_p_nested_deep_s : bytes := ex_nested ++ [46; 100; 101; 101; 112; 46; 115].  (* "nested.deep.s" *)
Definition ex_paths : list bytes := [ex_p_nested_n; [105]; [109]; ex_p_nested_deep_s].   (* "nested.n", "i", "m" (missing), "nested.deep.s" *)
Example ex_plain_paths : plain_paths ex_paths.
Proof.
  split.
  - repeat constructor; try discriminate.
  - repeat constructor; unfold seg_disjoint; cbn; intuition discriminate.
Qed.
Example ex_select :
  select_doc ex_paths ex_doc =
  Some [(ex_nested, VMap [([100; 101; 101; 112], VMap [([115], VStr [120])]); ([110], VInt 2)]); ([105], VInt 1)].
Proof. reflexivity. Qed.
Example ex_select_star : select_doc [star] ex_doc = Some (rev ex_doc) /\ NoDup (map fst ex_doc).
Proof. split; [reflexivity|]. repeat constructor; cbn; intuition discriminate. Qed.
(* outside plain_paths: a path into a scalar fails as a whole (the behaviour recorded in DESIGN 6 F10) *)
Example ex_select_scalar_collision : select_doc [[105; 46; 120]] ex_doc = None.
Proof. reflexivity. Qed.
