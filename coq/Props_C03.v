(* Props_C03.v -- property C03: graph (Vamana) vector search returns only live, in-filter
   points, correctly ranked; exact in two regimes.  The proofs are in Proofs_Vamana.v.

   Model: Model_Vamana.v (shared with C10): DistSet, greedySearch, Search post-processing.
   [wf P g live] is the C10 invariant (Props_C10.v proves that every history of batches keeps
   it): live = node ids of the live points that carry the vector field.  The pre-filter is the
   list of node ids in the bitmap (the shard computes it from the filter query: C02).
   All theorems hold for EVERY distance function d, query, weight, limit k <= search size Lq
   (validation: 1 <= k <= Lq, 25 <= Lq <= 75).

   Proved in full: the DistSet invariants, soundness, exactness for filters with at most
   searchSize members, reachability of every node after insert-only histories with at most
   min(R, L-1) vectors (c03_reach_insert_only), exactness when the whole graph fits inside the
   search window and is reachable (c03_exact_small), and their composition
   (c03_exact_insert_only).  "Exact k nearest" is stated as: the answer is
   sound and a candidate is left out only when the answer has k rows and the candidate is at
   least as far as every row (ties free). *)
From Coq Require Import List NArith ZArith QArith Bool Sorted.
From Semadb Require Import Model_Vamana Proofs_Vamana.
Import ListNotations.

(* DistSet: after ANY sequence of AddWithLimit calls on an empty set of capacity c the ids
   are duplicate-free, at most c elements are kept, they are in non-decreasing distance order,
   each kept element is one of the offered points with its distance ... *)
Theorem c03_distset_invariants : forall vec (dist : vec -> Q) (c : nat) (ps : list (N * vec)),
  let ds := add_all_with_limit dist (empty_ds c) ps in
  NoDup (ids (items ds)) /\ (length (items ds) <= c)%nat /\
  StronglySorted Qle (map it_d (items ds)) /\
  (forall it, In it (items ds) -> In (it_id it, it_vec it) ps /\ it_d it = dist (it_vec it)).
Proof. exact distset_invariants. Qed.
Print Assumptions c03_distset_invariants.

(* ... and the kept elements are the c best of what was offered (ties free): every dropped
   point is at least as far as every kept one, and nothing is dropped while there is room *)
Theorem c03_distset_kbest : forall vec (dist : vec -> Q) (c : nat) (ps : list (N * vec)),
  NoDup (map fst ps) ->
  let ds := add_all_with_limit dist (empty_ds c) ps in
  (forall id v, In (id, v) ps -> ~ In id (ids (items ds)) ->
                forall it, In it (items ds) -> (it_d it <= dist v)%Q) /\
  length (items ds) = Nat.min c (length ps).
Proof. exact distset_kbest. Qed.
Print Assumptions c03_distset_kbest.

(* soundness on every well-formed graph: the search does not fail; no duplicates; at most
   k rows; non-decreasing distances; every row is a live point carrying the field, is not the
   entry node, lies in the pre-filter when one is given; its distance is the index distance
   between the query and the STORED vector; hybrid = -(weight * distance). *)
Theorem c03_sound : forall vec (d : vec -> vec -> Q) (P : params) (g : graph vec) live
    (q : vec) (k Lq : nat) (w : Q) (flt : option (list N)),
  wf P g live -> (k <= Lq)%nat ->
  exists res, search d g q k Lq w flt = Ok res /\
    NoDup (map sr_id res) /\ (length res <= k)%nat /\ StronglySorted Qle (map sr_dist res) /\
    forall r, In r res ->
      In (sr_id r) live /\ sr_id r <> START /\ (forall f, flt = Some f -> In (sr_id r) f) /\
      (exists v, lookup (sr_id r) (vecs g) = Some v /\ sr_dist r = d q v) /\
      (sr_hybrid r == - (w * sr_dist r))%Q.
Proof. exact search_sound. Qed.
Print Assumptions c03_sound.

(* a pre-filter with at most searchSize members: the answer is an exact k-smallest
   selection (by d to the query, ties free) of the filter members that have a stored vector:
   min(k, #candidates) rows, all candidates, and every candidate left out is at least as far as
   every row. *)
Theorem c03_exact_filter : forall vec (d : vec -> vec -> Q) (P : params) (g : graph vec) live
    (q : vec) (k Lq : nat) (w : Q) (f : list N),
  wf P g live -> NoDup f -> ~ In START f -> (length f <= Lq)%nat -> (k <= Lq)%nat ->
  let C := get_many f (vecs g) in
  exists res, search d g q k Lq w (Some f) = Ok res /\
    length res = Nat.min k (length C) /\ NoDup (map sr_id res) /\ StronglySorted Qle (map sr_dist res) /\
    (forall r, In r res -> exists v, In (sr_id r, v) C /\ sr_dist r = d q v) /\
    (forall id v, In (id, v) C -> ~ In id (map sr_id res) -> forall r, In r res -> (sr_dist r <= d q v)%Q).
Proof. exact search_exact_filter. Qed.
Print Assumptions c03_exact_filter.

(* the whole graph fits inside the search window (nodes incl. the entry node <= searchSize)
   and every node is reachable from the entry node: the search visits every node and the
   answer is the exact k nearest of the live points -- a live point is left out only when the
   answer is full and the point is at least as far as every row (soundness: c03_sound). *)
Theorem c03_exact_small : forall vec (d : vec -> vec -> Q) (P : params) (g : graph vec) live
    (q : vec) (k Lq : nat) (w : Q),
  wf P g live -> (forall x, In x (dom (edges g)) -> reach g x) ->
  (length (edges g) <= Lq)%nat -> (k <= Lq)%nat ->
  exists res, search d g q k Lq w None = Ok res /\
    forall x v, In x live -> x <> START -> lookup x (vecs g) = Some v -> ~ In x (map sr_id res) ->
      length res = k /\ forall r, In r res -> (sr_dist r <= d q v)%Q.
Proof. exact search_exact_small. Qed.
Print Assumptions c03_exact_small.

(* every insert-only history (any split into batches, any order of the workers' single
   inserts as modelled) of n <= min(degreeBound, searchSize - 1) distinct points on the fresh
   index yields a well-formed graph of n+1 nodes, all reachable from the entry node: the new
   node always gets an out-edge into the visited set and that neighbour is never full, so the
   back edge is appended, never pruned. *)
Theorem c03_reach_insert_only : forall vec (d : vec -> vec -> Q) (P : params),
  (1 <= pR P)%nat -> (1 <= pL P)%nat ->
  forall (v0 : vec) (batches : list (list (N * option vec))),
  Forall (Forall (fun c => snd c <> None /\ fst c <> START /\ fst c <> 0%N)) batches ->
  NoDup (map fst (concat batches)) ->
  (length (concat batches) <= Nat.min (pR P) (pL P - 1))%nat ->
  exists g live, run_history d P v0 (setup_start v0 empty_graph) batches = Ok g /\ wf P g live /\
    (forall x, In x (dom (edges g)) -> reach g x) /\ length (edges g) = S (length (concat batches)).
Proof. exact reach_insert_only. Qed.
Print Assumptions c03_reach_insert_only.

(* ... hence exactness of every search whose searchSize exceeds the number of vectors *)
Theorem c03_exact_insert_only : forall vec (d : vec -> vec -> Q) (P : params),
  (1 <= pR P)%nat -> (1 <= pL P)%nat ->
  forall (v0 : vec) (batches : list (list (N * option vec))) (q : vec) (k Lq : nat) (w : Q),
  Forall (Forall (fun c => snd c <> None /\ fst c <> START /\ fst c <> 0%N)) batches ->
  NoDup (map fst (concat batches)) ->
  (length (concat batches) <= Nat.min (pR P) (pL P - 1))%nat ->
  (S (length (concat batches)) <= Lq)%nat -> (k <= Lq)%nat ->
  exists g live res, run_history d P v0 (setup_start v0 empty_graph) batches = Ok g /\ wf P g live /\
    search d g q k Lq w None = Ok res /\
    forall x v, In x live -> x <> START -> lookup x (vecs g) = Some v -> ~ In x (map sr_id res) ->
      length res = k /\ forall r, In r res -> (sr_dist r <= d q v)%Q.
Proof.
  intros vec d P HR HL v0 batches q k Lq w Hok Hnd Hlen HLq Hk.
  destruct (reach_insert_only vec d P HR HL v0 batches Hok Hnd Hlen) as [g [live [E [Hw [Hr Hl]]]]].
  destruct (search_exact_small vec d P g live q k Lq w Hw Hr) as [res [Es Hex]]; [now rewrite Hl|exact Hk|].
  now exists g, live, res.
Qed.
Print Assumptions c03_exact_insert_only.

Definition exV := (Z * Z)%type.
Definition ex_d (a b : exV) : Q :=
  inject_Z ((fst a - fst b) * (fst a - fst b) + (snd a - snd b) * (snd a - snd b)).
Definition ex_P := mkParams 3 (12 # 10) 5.
Definition ex_show (r : result (list sres)) : option (list (N * Q * Q)) :=
  match r with Ok l => Some (map (fun x => (sr_id x, sr_dist x, sr_hybrid x)) l) | Err _ => None end.

(* a 6-point graph (built by the model from a mixed history) and a filter of 3 *)
Definition ex_hist : list (list (N * option exV)) :=
  [ [(2%N, Some (0, 0)%Z); (3%N, Some (1, 0)%Z); (4%N, Some (0, 1)%Z); (5%N, Some (5, 5)%Z); (6%N, Some (6, 5)%Z); (7%N, Some (2, 2)%Z)];
    [(3%N, None); (4%N, Some (9, 9)%Z); (8%N, Some (1, 1)%Z)] ].
Definition ex_g : graph exV :=
  match run_history ex_d ex_P (100, 100)%Z empty_graph ex_hist with Ok g => g | Err _ => empty_graph end.
Example ex_c03_graph_wf : wf_b ex_P ex_g [2; 4; 5; 6; 7; 8]%N = true.
Proof. vm_compute. reflexivity. Qed.
(* no filter: never the entry node 1 nor the deleted point 3; sorted; hybrid = -(w * dist) *)
Example ex_c03_search : ex_show (search ex_d ex_g (0, 0)%Z 4 5 2 None) =
  Some [(2%N, 0, 0); (8%N, 2, -4); (7%N, 8, -16); (5%N, 50, -100)]%Q.
Proof. vm_compute. reflexivity. Qed.
(* filter {5, 3 (deleted), 4, 7, 99 (unknown)}: the exact 2 nearest of {4, 5, 7} *)
Example ex_c03_filter : ex_show (search ex_d ex_g (0, 0)%Z 2 5 1 (Some [5; 3; 4; 7; 99]%N)) =
  Some [(7%N, 8, -8); (5%N, 50, -50)]%Q.
Proof. vm_compute. reflexivity. Qed.
Example ex_c03_filter_hyps : NoDup [5; 3; 4; 7; 99]%N /\ ~ In START [5; 3; 4; 7; 99]%N /\ (length [5; 3; 4; 7; 99]%N <= 5)%nat.
Proof. split; [repeat constructor; simpl; intuition discriminate|]. split; [simpl; intuition discriminate|simpl; repeat constructor]. Qed.

(* a 3-point insert-only build (n = 3 <= min(R, L-1) = 3): all nodes reachable, search exact *)
Definition ex_io : list (list (N * option exV)) :=
  [ [(2%N, Some (0, 0)%Z); (3%N, Some (4, 0)%Z)]; [(4%N, Some (1, 1)%Z)] ].
Definition ex_gio : graph exV :=
  match run_history ex_d ex_P (100, 100)%Z (setup_start (100, 100)%Z empty_graph) ex_io with Ok g => g | Err _ => empty_graph end.
Example ex_c03_io_edges : edges ex_gio = [(1, [2; 3; 4]); (3, [2; 1; 4]); (2, [1; 3; 4]); (4, [2; 3; 1])]%N.
Proof. vm_compute. reflexivity. Qed.
Example ex_c03_io_search : ex_show (search ex_d ex_gio (3, 0)%Z 2 5 1 None) = Some [(3%N, 1, -1); (4%N, 5, -5)]%Q.
Proof. vm_compute. reflexivity. Qed.
Example ex_c03_io_hyps :
  Forall (Forall (fun c : N * option exV => snd c <> None /\ fst c <> START /\ fst c <> 0%N)) ex_io /\
  NoDup (map fst (concat ex_io)) /\ (length (concat ex_io) <= Nat.min (pR ex_P) (pL ex_P - 1))%nat.
Proof.
  split; [repeat constructor; simpl; discriminate|]. split; [simpl; repeat constructor; simpl; intuition discriminate|].
  simpl. repeat constructor.
Qed.
(* a 5-point insert-only build with degree bound 8, search size 10: n = 5 <= min(8, 9) *)
Definition ex_P8 := mkParams 8 (12 # 10) 10.
Definition ex_io5 : list (list (N * option exV)) :=
  [ [(2%N, Some (0, 0)%Z); (3%N, Some (4, 0)%Z); (4%N, Some (1, 1)%Z)]; [(5%N, Some (9, 9)%Z)]; [(6%N, Some (2, 3)%Z)] ].
Definition ex_gio5 : graph exV :=
  match run_history ex_d ex_P8 (100, 100)%Z (setup_start (100, 100)%Z empty_graph) ex_io5 with Ok g => g | Err _ => empty_graph end.
Example ex_c03_io5_wf : wf_b ex_P8 ex_gio5 [2; 3; 4; 5; 6]%N = true /\ length (edges ex_gio5) = 6%nat.
Proof. vm_compute. split; reflexivity. Qed.
Example ex_c03_io5_search : ex_show (search ex_d ex_gio5 (2, 2)%Z 3 10 1 None) = Some [(6%N, 1, -1); (4%N, 2, -2); (2%N, 8, -8)]%Q.
Proof. vm_compute. reflexivity. Qed.

(* DistSet: capacity 2, five offers (the second offer of id 5 is ignored, the id was seen): the two best, sorted *)
Example ex_c03_distset :
  map (fun it => (it_id it, it_d it))
      (items (add_all_with_limit (ex_d (0, 0)%Z) (empty_ds 2)
                [(5%N, (3, 0)%Z); (6%N, (1, 0)%Z); (5%N, (0, 0)%Z); (7%N, (2, 0)%Z); (8%N, (1, 1)%Z)])) =
  [(6%N, 1); (8%N, 2)]%Q.
Proof. vm_compute. reflexivity. Qed.
