(* Proofs_C12.v -- the lock-protocol model of Model_C12: every step decreases the measure; an invariant
   of the reachable states, and safety from it.
   The steps are read once, as tables of transitions (what the step writes, the next program counter).
   Each clause of the invariant looks at the state through a few functions of the program counters, the
   entries and the directories; a transition that does not change what these show preserves the clause,
   and only the others are looked at. *)
From Coq Require Import List Arith Bool Lia.
From Semadb Require Import Model_C12.
Import ListNotations.

Lemma upd_length : forall A (l : list A) i x, length (upd l i x) = length l.
Proof. induction l; destruct i; simpl; intros; auto. Qed.

Lemma nth_upd : forall A (l : list A) i j x d, i < length l ->
  nth j (upd l i x) d = if j =? i then x else nth j l d.
Proof. induction l; destruct i, j; simpl; intros; try lia; auto. apply IHl. lia. Qed.

Lemma nth_app_new : forall A (l : list A) x j d,
  nth j (l ++ [x]) d = if j =? length l then x else nth j l d.
Proof.
  induction l; simpl; intros.
  - destruct j as [|[|j]]; reflexivity.
  - destruct j; simpl; auto.
Qed.

Lemma nth_in_range : forall A (l : list A) i d, nth i l d <> d -> i < length l.
Proof.
  intros. destruct (Nat.lt_ge_cases i (length l)); auto.
  exfalso. apply H. apply nth_overflow. auto.
Qed.

Lemma in_remove_nat : forall n m l, In m (remove_nat n l) <-> In m l /\ m <> n.
Proof.
  intros. unfold remove_nat. rewrite filter_In.
  destruct (Nat.eqb_spec m n); simpl; intuition congruence.
Qed.

Lemma T_set_thr : forall st n0 c n, n0 < length (thr st) ->
  T (set_thr st n0 c) n = if n =? n0 then c else T st n.
Proof. intros. apply nth_upd. auto. Qed.
Lemma E_set_ent : forall st e0 x e, e0 < length (ents st) ->
  E (set_ent st e0 x) e = if e =? e0 then x else E st e.
Proof. intros. apply nth_upd. auto. Qed.
Lemma D_set_dir : forall st d0 x d, d0 < length (dirs st) ->
  D (set_dir st d0 x) d = if d =? d0 then x else D st d.
Proof. intros. apply nth_upd. auto. Qed.
Lemma E_add_ent : forall st x e, E (add_ent st x) e = if e =? length (ents st) then x else E st e.
Proof. intros. apply nth_app_new. Qed.

Lemma E_set_thr : forall st n c e, E (set_thr st n c) e = E st e. Proof. reflexivity. Qed.
Lemma D_set_thr : forall st n c d, D (set_thr st n c) d = D st d. Proof. reflexivity. Qed.
Lemma sl_set_thr : forall st n c, sl (set_thr st n c) = sl st. Proof. reflexivity. Qed.
Lemma T_set_ent : forall st e x n, T (set_ent st e x) n = T st n. Proof. reflexivity. Qed.
Lemma D_set_ent : forall st e x d, D (set_ent st e x) d = D st d. Proof. reflexivity. Qed.
Lemma sl_set_ent : forall st e x, sl (set_ent st e x) = sl st. Proof. reflexivity. Qed.
Lemma T_set_dir : forall st d x n, T (set_dir st d x) n = T st n. Proof. reflexivity. Qed.
Lemma E_set_dir : forall st d x e, E (set_dir st d x) e = E st e. Proof. reflexivity. Qed.
Lemma sl_set_dir : forall st d x, sl (set_dir st d x) = sl st. Proof. reflexivity. Qed.
Lemma T_set_sl : forall st v n, T (set_sl st v) n = T st n. Proof. reflexivity. Qed.
Lemma E_set_sl : forall st v e, E (set_sl st v) e = E st e. Proof. reflexivity. Qed.
Lemma D_set_sl : forall st v d, D (set_sl st v) d = D st d. Proof. reflexivity. Qed.
Lemma sl_set_sl : forall st v, sl (set_sl st v) = v. Proof. reflexivity. Qed.
Lemma T_add_ent : forall st x n, T (add_ent st x) n = T st n. Proof. reflexivity. Qed.
Lemma D_add_ent : forall st x d, D (add_ent st x) d = D st d. Proof. reflexivity. Qed.
Lemma sl_add_ent : forall st x, sl (add_ent st x) = sl st. Proof. reflexivity. Qed.

Lemma len_thr_set_thr : forall st n c, length (thr (set_thr st n c)) = length (thr st).
Proof. intros. apply upd_length. Qed.
Lemma len_ents_set_thr : forall st n c, length (ents (set_thr st n c)) = length (ents st). Proof. reflexivity. Qed.
Lemma len_dirs_set_thr : forall st n c, length (dirs (set_thr st n c)) = length (dirs st). Proof. reflexivity. Qed.
Lemma len_thr_set_ent : forall st n c, length (thr (set_ent st n c)) = length (thr st). Proof. reflexivity. Qed.
Lemma len_ents_set_ent : forall st n c, length (ents (set_ent st n c)) = length (ents st).
Proof. intros. apply upd_length. Qed.
Lemma len_dirs_set_ent : forall st n c, length (dirs (set_ent st n c)) = length (dirs st). Proof. reflexivity. Qed.
Lemma len_thr_set_dir : forall st n c, length (thr (set_dir st n c)) = length (thr st). Proof. reflexivity. Qed.
Lemma len_ents_set_dir : forall st n c, length (ents (set_dir st n c)) = length (ents st). Proof. reflexivity. Qed.
Lemma len_dirs_set_dir : forall st n c, length (dirs (set_dir st n c)) = length (dirs st).
Proof. intros. apply upd_length. Qed.
Lemma len_thr_set_sl : forall st v, length (thr (set_sl st v)) = length (thr st). Proof. reflexivity. Qed.
Lemma len_ents_set_sl : forall st v, length (ents (set_sl st v)) = length (ents st). Proof. reflexivity. Qed.
Lemma len_dirs_set_sl : forall st v, length (dirs (set_sl st v)) = length (dirs st). Proof. reflexivity. Qed.
Lemma len_thr_add_ent : forall st x, length (thr (add_ent st x)) = length (thr st). Proof. reflexivity. Qed.
Lemma len_ents_add_ent : forall st x, length (ents (add_ent st x)) = S (length (ents st)).
Proof. intros. unfold add_ent. simpl. rewrite app_length. simpl. lia. Qed.
Lemma len_dirs_add_ent : forall st x, length (dirs (add_ent st x)) = length (dirs st). Proof. reflexivity. Qed.

Lemma sig_idle : forall x, e_idle (signalled x) = match e_idle x with IWait => IExit | p => p end.
Proof. intros. unfold signalled. destruct (e_idle x) eqn:Hq; simpl; auto. Qed.
Lemma sig_w : forall x, e_w (signalled x) = e_w x.
Proof. intros. unfold signalled. destruct (e_idle x); auto. Qed.
Lemma sig_rd : forall x, e_rd (signalled x) = e_rd x.
Proof. intros. unfold signalled. destruct (e_idle x); auto. Qed.
Lemma sig_open : forall x, e_open (signalled x) = e_open x.
Proof. intros. unfold signalled. destruct (e_idle x); auto. Qed.
Lemma sig_dir : forall x, e_dir (signalled x) = e_dir x.
Proof. intros. unfold signalled. destruct (e_idle x); auto. Qed.
Lemma sig_by : forall x, e_by (signalled x) = e_by x.
Proof. intros. unfold signalled. destruct (e_idle x); auto. Qed.

Lemma T_in_range : forall st n, T st n <> dthr -> n < length (thr st).
Proof. intros st n. apply nth_in_range. Qed.
Lemma E_in_range : forall st e, E st e <> dent -> e < length (ents st).
Proof. intros st e. apply nth_in_range. Qed.
Lemma E_overflow : forall st e, length (ents st) <= e -> E st e = dent.
Proof. intros. apply nth_overflow. auto. Qed.

(* the transitions of each kind of thread at each program counter: the shared state after the
   step (everything but the thread's own program counter) and the next program counter *)

Inductive creq (st : state) (n d : nat) : rpc -> state -> rpc -> Prop :=
| q_acq : sl st = None -> creq st n d RAcqSL (set_sl st (Some (TC n))) RLoad
| q_reuse e : d_store (D st d) = Some e -> creq st n d RLoad st (RRelSL e)
| q_rel e : creq st n d (RRelSL e) (set_sl st None) (RRLock e)
| q_rlock e : e_w (E st e) = None ->
    creq st n d (RRLock e) (set_ent st e (with_rd (E st e) (n :: e_rd (E st e)))) (RNil e)
| q_open e : e_open (E st e) = true -> creq st n d (RNil e) st (RBegin e)
| q_closed e : e_open (E st e) = false -> creq st n d (RNil e) st (RRUnlock e false)
| q_begin e : creq st n d (RBegin e) st (REnd e)
| q_end e : creq st n d (REnd e) st (RRUnlock e true)
| q_runlock e ok :
    creq st n d (RRUnlock e ok) (set_ent st e (with_rd (E st e) (remove_nat n (e_rd (E st e)))))
         (RDone (if ok then ROk else RClosed)).

Inductive cdel (st : state) (n : nat) : dpc -> state -> dpc -> Prop :=
| d_acq : sl st = None -> cdel st n DAcqSL (set_sl st (Some (TC n))) DScan
| d_scan : cdel st n DScan st (DLookup (existing_dirs st))
| d_look_nil : cdel st n (DLookup []) st DRelSL
| d_look_some d r e : d_store (D st d) = Some e -> cdel st n (DLookup (d :: r)) st (DLockAnn e (d :: r))
| d_look_none d r : d_store (D st d) = None -> cdel st n (DLookup (d :: r)) st (DDelEntry (d :: r))
| d_ann e todo : e_w (E st e) = None ->
    cdel st n (DLockAnn e todo) (set_ent st e (with_w (E st e) (Some (TC n, false)))) (DLockAcq e todo)
| d_lock e todo : e_rd (E st e) = [] ->
    cdel st n (DLockAcq e todo) (set_ent st e (with_w (E st e) (Some (TC n, true)))) (DNilChk e todo)
| d_open e todo : e_open (E st e) = true ->
    cdel st n (DNilChk e todo) (set_ent st e (signalled (E st e))) (DClose e todo)
| d_closed e todo : e_open (E st e) = false -> cdel st n (DNilChk e todo) st (DUnlock e todo)
| d_close e todo :
    cdel st n (DClose e todo)
         (set_ent (set_dir st (e_dir (E st e))
                           (with_handles (D st (e_dir (E st e))) (pred (d_handles (D st (e_dir (E st e)))))))
                  e (with_open (E st e) false))
         (DUnlock e todo)
| d_unlock e todo : cdel st n (DUnlock e todo) (set_ent st e (with_w (E st e) None)) (DDelEntry todo)
| d_del_nil : cdel st n (DDelEntry []) st DRelSL
| d_del d r : cdel st n (DDelEntry (d :: r)) (set_dir st d (with_store (D st d) None)) (DRemove (d :: r))
| d_rem_nil : cdel st n (DRemove []) st DRelSL
| d_rem d r : cdel st n (DRemove (d :: r)) (set_dir st d (with_exists (D st d) false)) (DLookup r)
| d_rel : cdel st n DRelSL (set_sl st None) DDone.

(* idle routine of entry e, whose value is x: the state before the entry is written, the new entry *)
Inductive cidle (fixed : bool) (st : state) (e : nat) (x : entry) : ipc -> state -> entry -> Prop :=
| c_fire : cidle fixed st e x IWait st (with_idle x IFired)
| c_ann : e_w x = None -> cidle fixed st e x IFired st (with_idle (with_w x (Some (TI e, false))) ILockPend)
| c_lock : e_rd x = [] -> cidle fixed st e x ILockPend st (with_idle (with_w x (Some (TI e, true))) ILocked)
| c_open : e_open x = true -> cidle fixed st e x ILocked st (with_idle x IClose)
| c_closed : e_open x = false -> cidle fixed st e x ILocked st (with_idle x IUnlockNil)
| c_close : fixed = true ->
    cidle fixed st e x IClose
          (set_dir st (e_dir x) (with_handles (D st (e_dir x)) (pred (d_handles (D st (e_dir x))))))
          (with_idle (with_open x false) IUnlock)
| c_close_p : fixed = false ->
    cidle fixed st e x IClose
          (set_dir st (e_dir x) (with_handles (D st (e_dir x)) (pred (d_handles (D st (e_dir x))))))
          (with_idle (with_open x false) IAcqSLp)
| c_unlock : cidle fixed st e x IUnlock st (with_idle (with_w x None) IAcqSL)
| c_acq : sl st = None -> cidle fixed st e x IAcqSL (set_sl st (Some (TI e))) (with_idle x IDel)
| c_del_own : d_store (D st (e_dir x)) = Some e ->
    cidle fixed st e x IDel (set_dir st (e_dir x) (with_store (D st (e_dir x)) None)) (with_idle x IRelSL)
| c_del_other : d_store (D st (e_dir x)) <> Some e -> cidle fixed st e x IDel st (with_idle x IRelSL)
| c_rel : cidle fixed st e x IRelSL (set_sl st None) (with_idle x IExit)
| c_unlock_nil : cidle fixed st e x IUnlockNil st (with_idle (with_w x None) IExit)
| c_acq_p : sl st = None -> cidle fixed st e x IAcqSLp (set_sl st (Some (TI e))) (with_idle x IDelp)
| c_del_p :
    cidle fixed st e x IDelp (set_dir st (e_dir x) (with_store (D st (e_dir x)) None)) (with_idle x IRelSLp)
| c_rel_p : cidle fixed st e x IRelSLp (set_sl st None) (with_idle x IUnlockP)
| c_unlock_p : cidle fixed st e x IUnlockP st (with_idle (with_w x None) IExit).

(* the one step that extends the state: a request loads a shard that is not mapped *)
Definition load (st : state) (n d : nat) : state :=
  set_thr (add_ent (set_dir st d (mkDir (Some (length (ents st))) true (S (d_handles (D st d)))))
                   (mkEntry d n true None [] IWait))
          n (CReq d (RRelSL (length (ents st)))).

(* reads a transition off an equation [step_... = Some st'] *)
Ltac find_row H :=
  repeat match type of H with
    | context [is_none ?o] => destruct o eqn:?; simpl in H
    | context [is_nil ?l] => destruct l eqn:?; simpl in H
    | context [?a =? ?b] => destruct (Nat.eqb_spec a b); subst
    | context [if ?b then _ else _] => destruct b eqn:?
    | context [match ?o with Some _ => _ | None => _ end] => destruct o eqn:?
    | context [match ?l with [] => _ | _ :: _ => _ end] => destruct l
    end;
  inversion H; eexists _, _; (split; [|reflexivity]); constructor; congruence.

Lemma step_req_inv : forall st n d pc st', step_req st n d pc = Some st' ->
  (exists sh pc', creq st n d pc sh pc' /\ st' = set_thr sh n (CReq d pc')) \/
  pc = RLoad /\ d_store (D st d) = None /\ st' = load st n d.
Proof.
  intros st n d pc st' H. destruct pc; simpl in H.
  2: destruct (d_store (D st d)) eqn:Hs; inversion H; [|right; auto].
  all: left; find_row H.
Qed.

Lemma step_del_inv : forall st n pc st', step_del st n pc = Some st' ->
  exists sh pc', cdel st n pc sh pc' /\ st' = set_thr sh n (CDel pc').
Proof. intros st n pc st' H. destruct pc; simpl in H; find_row H. Qed.

Lemma step_idle_inv : forall fixed st e st', step_idle fixed st e = Some st' ->
  exists sh x', cidle fixed st e (E st e) (e_idle (E st e)) sh x' /\ st' = set_ent sh e x'.
Proof. intros fixed st e st' H. unfold step_idle in H. destruct (e_idle (E st e)); find_row H. Qed.

Lemma sum_upd : forall A (f : A -> nat) (l : list A) i x d, i < length l ->
  sum_list (map f (upd l i x)) + f (nth i l d) = sum_list (map f l) + f x.
Proof.
  induction l; destruct i; simpl; intros; try lia.
  specialize (IHl i x d). lia.
Qed.

Lemma sum_upd_le : forall A (f : A -> nat) (l : list A) i x d, f x <= f (nth i l d) ->
  sum_list (map f (upd l i x)) <= sum_list (map f l).
Proof.
  induction l; destruct i; simpl; intros; try lia.
  specialize (IHl i x d). lia.
Qed.

Lemma sum_app1 : forall A (f : A -> nat) (l : list A) x,
  sum_list (map f (l ++ [x])) = sum_list (map f l) + f x.
Proof. induction l; simpl; intros; try lia. rewrite IHl. lia. Qed.

Lemma existing_dirs_length : forall st, length (existing_dirs st) <= length (dirs st).
Proof.
  intros. unfold existing_dirs. rewrite <- (seq_length (length (dirs st)) 0) at 2.
  induction (seq 0 (length (dirs st))); simpl; auto. destruct (d_exists (D st a)); simpl; lia.
Qed.

Definition mI (x : entry) := m_idle (e_idle x).

Lemma ents_upd_le : forall st e x, mI x <= mI (E st e) ->
  sum_list (map mI (upd (ents st) e x)) <= sum_list (map mI (ents st)).
Proof. intros. apply sum_upd_le with (d := dent). auto. Qed.

Lemma mI_signalled : forall x, mI (signalled x) <= mI x.
Proof. intros. unfold mI. rewrite sig_idle. destruct (e_idle x); simpl; lia. Qed.

(* a client step: the thread's own measure drops by more than the idle routines' part grows *)
Lemma creq_measure : forall st n d pc sh pc', creq st n d pc sh pc' ->
  thr sh = thr st /\ length (dirs sh) = length (dirs st) /\
  sum_list (map mI (ents sh)) + m_req pc' < sum_list (map mI (ents st)) + m_req pc.
Proof.
  destruct 1; simpl; repeat split; rewrite ?upd_length; auto;
    apply Nat.add_le_lt_mono; auto using ents_upd_le; lia.
Qed.

Lemma cdel_measure : forall st n pc sh pc', cdel st n pc sh pc' ->
  thr sh = thr st /\ length (dirs sh) = length (dirs st) /\
  sum_list (map mI (ents sh)) + m_del (length (dirs st)) pc' <
  sum_list (map mI (ents st)) + m_del (length (dirs st)) pc.
Proof.
  destruct 1; simpl; repeat split; rewrite ?upd_length; auto;
    apply Nat.add_le_lt_mono; auto using ents_upd_le, mI_signalled; try lia.
  pose proof (existing_dirs_length st). lia.
Qed.

Lemma cidle_measure : forall fixed st e x p sh x', cidle fixed st e x p sh x' ->
  thr sh = thr st /\ length (dirs sh) = length (dirs st) /\ ents sh = ents st /\ mI x' < m_idle p.
Proof.
  destruct 1; unfold mI; simpl; repeat split; rewrite ?upd_length; auto; lia.
Qed.

Lemma measure_mI : forall st,
  measure st = sum_list (map (m_thr (length (dirs st))) (thr st)) + sum_list (map mI (ents st)).
Proof. reflexivity. Qed.

Lemma step_measure : forall fixed st t st', step fixed st t = Some st' -> measure st' < measure st.
Proof.
  intros fixed st [n|e] st' H; simpl in H.
  - assert (Hn : n < length (thr st)) by (apply T_in_range; intro Hd; rewrite Hd in H; discriminate).
    assert (forall sh c', thr sh = thr st /\ length (dirs sh) = length (dirs st) /\
              sum_list (map mI (ents sh)) + m_thr (length (dirs st)) c' <
              sum_list (map mI (ents st)) + m_thr (length (dirs st)) (T st n) ->
              measure (set_thr sh n c') < measure st) as Hgen.
    { intros sh c' (Ht & Hd & Hm). rewrite !measure_mI. simpl. rewrite Ht, Hd.
      pose proof (sum_upd _ (m_thr (length (dirs st))) (thr st) n c' dthr Hn) as Hs. fold (T st n) in Hs. lia. }
    destruct (T st n) as [d pc|pc].
    + apply step_req_inv in H. destruct H as [(sh & pc' & Hq & ->) | (-> & _ & ->)].
      * eapply Hgen, creq_measure, Hq.
      * apply Hgen. simpl. rewrite upd_length, sum_app1. unfold mI at 2. simpl. repeat split; lia.
    + apply step_del_inv in H. destruct H as (sh & pc' & Hq & ->). eapply Hgen, cdel_measure, Hq.
  - apply step_idle_inv in H. destruct H as (sh & x' & Hq & ->).
    apply cidle_measure in Hq. destruct Hq as (Ht & Hd & He & Hm).
    assert (He' : e < length (ents st)).
    { apply E_in_range. intro Hx. rewrite Hx in Hm. simpl in Hm. lia. }
    rewrite !measure_mI. simpl. rewrite Ht, Hd, He.
    pose proof (sum_upd _ mI (ents st) e x' dent He') as Hs. fold (E st e) in Hs. unfold mI in *. lia.
Qed.

(* holds shardLock *)
Definition sl_pc (c : cthread) : bool :=
  match c with
  | CReq _ RLoad | CReq _ (RRelSL _) => true
  | CReq _ _ => false
  | CDel DAcqSL | CDel DDone => false
  | CDel _ => true
  end.
Definition isl_pc (p : ipc) : bool :=
  match p with IDel | IRelSL | IDelp | IRelSLp => true | _ => false end.
Definition isl_ent (x : entry) : bool := isl_pc (e_idle x).
Definition holds_sl (st : state) (t : tid) : Prop :=
  match t with TC n => sl_pc (T st n) = true | TI e => isl_ent (E st e) = true end.

(* is the writer of an entry; the flag says whether the lock is acquired *)
Definition w_pc (c : cthread) : option (nat * bool) :=
  match c with
  | CDel (DLockAcq e _) => Some (e, false)
  | CDel (DNilChk e _) | CDel (DClose e _) | CDel (DUnlock e _) => Some (e, true)
  | _ => None
  end.
Definition iw_pc (p : ipc) : option bool :=
  match p with
  | ILockPend => Some false
  | ILocked | IClose | IUnlock | IUnlockNil | IAcqSLp | IDelp | IRelSLp | IUnlockP => Some true
  | _ => None
  end.
Definition iw_ent (x : entry) : option bool := iw_pc (e_idle x).
Definition holds_w (st : state) (e : nat) (t : tid) (b : bool) : Prop :=
  match t with
  | TC n => w_pc (T st n) = Some (e, b)
  | TI e' => e' = e /\ iw_ent (E st e) = Some b
  end.

(* holds a read lock *)
Definition rd_pc (c : cthread) : option nat :=
  match c with
  | CReq _ (RNil e) | CReq _ (RBegin e) | CReq _ (REnd e) | CReq _ (RRUnlock e _) => Some e
  | _ => None
  end.

Definition pc_ent (c : cthread) : option nat :=
  match c with
  | CReq _ (RRelSL e) | CReq _ (RRLock e) | CReq _ (RNil e) | CReq _ (RBegin e) | CReq _ (REnd e)
  | CReq _ (RRUnlock e _) => Some e
  | CDel (DLockAnn e _) | CDel (DLockAcq e _) | CDel (DNilChk e _) | CDel (DClose e _) | CDel (DUnlock e _) => Some e
  | _ => None
  end.

Definition pc_dirs (c : cthread) : list nat :=
  match c with
  | CReq _ (RDone _) => []
  | CReq d _ => [d]
  | CDel (DLookup t) | CDel (DLockAnn _ t) | CDel (DLockAcq _ t) | CDel (DNilChk _ t) | CDel (DClose _ t)
  | CDel (DUnlock _ t) | CDel (DDelEntry t) | CDel (DRemove t) => t
  | CDel _ => []
  end.

Definition req_ent (c : cthread) : option (nat * nat) :=
  match c with
  | CReq d (RRelSL e) | CReq d (RRLock e) | CReq d (RNil e) | CReq d (RBegin e) | CReq d (REnd e)
  | CReq d (RRUnlock e _) => Some (d, e)
  | _ => None
  end.

(* relies on its entry being open, or closed *)
Definition pc_open (c : cthread) : option (nat * bool) :=
  match c with
  | CReq _ (RBegin e) | CReq _ (REnd e) | CReq _ (RRUnlock e true) | CDel (DClose e _) => Some (e, true)
  | CDel (DUnlock e _) => Some (e, false)
  | _ => None
  end.
Definition idle_open (p : ipc) : option bool :=
  match p with
  | IClose => Some true
  | IUnlock | IAcqSL | IDel | IRelSL | IUnlockNil | IAcqSLp | IDelp | IRelSLp | IUnlockP => Some false
  | _ => None
  end.

(* the map entry of the directory must be this entry: the shard is open, or the routine is going to
   close it, or (old lock order) to delete the map entry without looking at it *)
Definition own_map (p : ipc) : bool := match p with IClose | IAcqSLp | IDelp => true | _ => false end.
Definition tied (x : entry) : bool := own_map (e_idle x) || e_open x.

(* deletion thread working on entry e, with the directories still to handle; about to unmap d;
   about to remove d *)
Definition del_cur (c : cthread) : option (nat * list nat) :=
  match c with
  | CDel (DLockAnn e l) | CDel (DLockAcq e l) | CDel (DNilChk e l) | CDel (DClose e l) | CDel (DUnlock e l) =>
      Some (e, l)
  | _ => None
  end.
Definition del_dir (c : cthread) : option nat :=
  match c with CDel (DDelEntry (d :: _)) => Some d | _ => None end.
Definition rem_dir (c : cthread) : option nat :=
  match c with CDel (DRemove (d :: _)) => Some d | _ => None end.

(* who is responsible for a closed entry that is still mapped: its routine, on the way to unmap it, or
   the deletion that closed it (or found it closed) *)
Definition closing_pc (p : ipc) : bool :=
  match p with IUnlock | IAcqSL | IDel | IAcqSLp | IDelp => true | _ => false end.
Definition closing (x : entry) : bool := closing_pc (e_idle x).
Definition del_mid (c : cthread) (e d : nat) : bool :=
  match c with
  | CDel (DUnlock e' (d' :: _)) => (e' =? e) && (d' =? d)
  | CDel (DDelEntry (d' :: _)) => d' =? d
  | _ => false
  end.

Definition c_dirs st := forall n d, In d (pc_dirs (T st n)) -> d < length (dirs st).
Definition c_pc_ent st := forall n e, pc_ent (T st n) = Some e -> e < length (ents st).
Definition c_ent_dir st := forall e, e < length (ents st) -> e_dir (E st e) < length (dirs st).
Definition c_store st := forall d e, d_store (D st d) = Some e ->
  e < length (ents st) /\ e_dir (E st e) = d /\ d_exists (D st d) = true.
Definition c_sl st := forall t, sl st = Some t <-> holds_sl st t.
Definition c_w st := forall e t b, e_w (E st e) = Some (t, b) <-> holds_w st e t b.
Definition c_rd st := forall n e, In n (e_rd (E st e)) <-> rd_pc (T st n) = Some e.
Definition c_excl st := forall e t, e_w (E st e) = Some (t, true) -> e_rd (E st e) = [].
Definition c_req_ent st := forall n d e, req_ent (T st n) = Some (d, e) -> e_dir (E st e) = d.
Definition c_pc_open st := forall n e b, pc_open (T st n) = Some (e, b) -> e_open (E st e) = b.
Definition c_idle_open st := forall e b, idle_open (e_idle (E st e)) = Some b -> e_open (E st e) = b.
Definition c_mapped st := forall e, tied (E st e) = true -> d_store (D st (e_dir (E st e))) = Some e.
Definition c_handles st := forall d, d_handles (D st d) =
  match d_store (D st d) with Some e => if e_open (E st e) then 1 else 0 | None => 0 end.
Definition c_cur_mapped st := forall n e l, del_cur (T st n) = Some (e, l) ->
  exists d r, l = d :: r /\ d_store (D st d) = Some e.
Definition c_del_untied st := forall n d e, del_dir (T st n) = Some d -> d_store (D st d) = Some e ->
  tied (E st e) = false.
Definition c_rem_unmapped st := forall n d, rem_dir (T st n) = Some d -> d_store (D st d) = None.
Definition c_unloading st := forall d e, d_store (D st d) = Some e -> e_open (E st e) = false ->
  closing (E st e) = true \/ exists n, del_mid (T st n) e d = true.

Record inv (st : state) : Prop := mkInv {
  i_dirs : c_dirs st; i_pc_ent : c_pc_ent st; i_ent_dir : c_ent_dir st; i_store : c_store st;
  i_sl : c_sl st; i_w : c_w st; i_rd : c_rd st; i_excl : c_excl st;
  i_req_ent : c_req_ent st; i_pc_open : c_pc_open st; i_idle_open : c_idle_open st;
  i_mapped : c_mapped st; i_handles : c_handles st;
  i_cur_mapped : c_cur_mapped st; i_del_untied : c_del_untied st; i_rem_unmapped : c_rem_unmapped st;
  i_unloading : c_unloading st }.

(* a step from a state that satisfies the invariant: the step that loads a new entry, or one that
   overwrites cells that exist, with the bounds of the entry and of the directory it writes to *)

Definition ent_ok (st : state) (o : option nat) : Prop :=
  match o with
  | Some e => e < length (ents st) /\ e_dir (E st e) < length (dirs st)
  | None => True
  end.
Definition head_ok (st : state) (l : list nat) : Prop :=
  match l with d :: _ => d < length (dirs st) | [] => True end.

Inductive trans (fixed : bool) (st : state) : tid -> state -> Prop :=
| t_req n d pc sh pc' : T st n = CReq d pc -> n < length (thr st) ->
    ent_ok st (pc_ent (CReq d pc)) -> creq st n d pc sh pc' ->
    trans fixed st (TC n) (set_thr sh n (CReq d pc'))
| t_del n pc sh pc' : T st n = CDel pc -> n < length (thr st) ->
    ent_ok st (pc_ent (CDel pc)) -> head_ok st (pc_dirs (CDel pc)) -> cdel st n pc sh pc' ->
    trans fixed st (TC n) (set_thr sh n (CDel pc'))
| t_idle e p sh x' : e_idle (E st e) = p -> e < length (ents st) -> e_dir (E st e) < length (dirs st) ->
    cidle fixed st e (E st e) p sh x' ->
    trans fixed st (TI e) (set_ent sh e x').

Lemma step_trans : forall fixed st t st', inv st -> step fixed st t = Some st' ->
  trans fixed st t st' \/
  exists n d, t = TC n /\ T st n = CReq d RLoad /\ n < length (thr st) /\ d < length (dirs st) /\
              d_store (D st d) = None /\ st' = load st n d.
Proof.
  intros fixed st [n|e] st' Hinv H; simpl in H.
  - assert (Hn : n < length (thr st)) by (apply T_in_range; intro Hd; rewrite Hd in H; discriminate).
    assert (He : ent_ok st (pc_ent (T st n))).
    { destruct (pc_ent (T st n)) as [e|] eqn:He; simpl; auto.
      pose proof (i_pc_ent _ Hinv _ _ He). split; auto. apply (i_ent_dir _ Hinv). auto. }
    pose proof (i_dirs _ Hinv n) as Hd. destruct (T st n) as [d pc|pc] eqn:HT.
    + apply step_req_inv in H. destruct H as [(sh & pc' & Hq & ->) | (-> & Hs & ->)].
      * left. eapply t_req; eauto.
      * right. exists n, d. repeat split; auto. apply Hd. left. auto.
    + apply step_del_inv in H. destruct H as (sh & pc' & Hq & ->).
      left. eapply t_del; eauto. destruct (pc_dirs (CDel pc)); simpl; auto. apply Hd. left. auto.
  - apply step_idle_inv in H. destruct H as (sh & x' & Hq & ->).
    assert (He : e < length (ents st)).
    { apply E_in_range. intro Hx. rewrite Hx in Hq. inversion Hq. }
    left. eapply t_idle; eauto. apply (i_ent_dir _ Hinv). auto.
Qed.

(* names the parts of a transition: the stepping thread n0 at pc with HT, Hn, or the idle routine e0
   at p with HI, He; Hbe, Hbd, Hh are the bounds of the entry and of the directory the step writes to *)
Ltac rows H :=
  destruct H as [n0 d0 pc sh pc' HT Hn Hb Hq | n0 pc sh pc' HT Hn Hb Hh Hq | e0 p sh x' HI He Hd Hq];
  [ destruct Hq; simpl in Hb | destruct Hq; simpl in Hb, Hh | destruct Hq ];
  try match type of Hb with _ /\ _ => destruct Hb as [Hbe Hbd] end.

Lemma T_upd : forall st st' n c m, thr st' = upd (thr st) n c -> n < length (thr st) ->
  T st' m = if m =? n then c else T st m.
Proof. intros. unfold T. rewrite H. apply nth_upd. auto. Qed.
Lemma E_upd : forall st st' e x e', ents st' = upd (ents st) e x -> e < length (ents st) ->
  E st' e' = if e' =? e then x else E st e'.
Proof. intros. unfold E. rewrite H. apply nth_upd. auto. Qed.
Lemma D_upd : forall st st' d y d', dirs st' = upd (dirs st) d y -> d < length (dirs st) ->
  D st' d' = if d' =? d then y else D st d'.
Proof. intros. unfold D. rewrite H. apply nth_upd. auto. Qed.

(* a view f of the threads (entries, directories) shows no change when the one cell that is written
   looks, through f, like the old one *)
Lemma T_keep : forall A (f : cthread -> A) st st' n c k, thr st' = upd (thr st) n c ->
  n < length (thr st) -> f c = f (T st n) -> f (T st' k) = f (T st k).
Proof. intros. rewrite (T_upd st st' n c) by auto. destruct (Nat.eqb_spec k n); subst; auto. Qed.
Lemma E_keep : forall A (f : entry -> A) st st' e x k, ents st' = upd (ents st) e x ->
  e < length (ents st) -> f x = f (E st e) -> f (E st' k) = f (E st k).
Proof. intros. rewrite (E_upd st st' e x) by auto. destruct (Nat.eqb_spec k e); subst; auto. Qed.
Lemma D_keep : forall A (f : dirst -> A) st st' d y k, dirs st' = upd (dirs st) d y ->
  d < length (dirs st) -> f y = f (D st d) -> f (D st' k) = f (D st k).
Proof. intros. rewrite (D_upd st st' d y) by auto. destruct (Nat.eqb_spec k d); subst; auto. Qed.
(* a value the view shows after the step was there before, when the written cell shows none that is new *)
Lemma T_lose : forall A (f : cthread -> option A) st st' n c k a, thr st' = upd (thr st) n c ->
  n < length (thr st) -> (forall a, f c = Some a -> f (T st n) = Some a) ->
  f (T st' k) = Some a -> f (T st k) = Some a.
Proof. intros A f st st' n c k a H Hn Hf. rewrite (T_upd st st' n c) by auto. destruct (Nat.eqb_spec k n); subst; auto. Qed.
Lemma D_lose : forall A (f : dirst -> option A) st st' d y k a, dirs st' = upd (dirs st) d y ->
  d < length (dirs st) -> (forall a, f y = Some a -> f (D st d) = Some a) ->
  f (D st' k) = Some a -> f (D st k) = Some a.
Proof. intros A f st st' d y k a H Hd Hf. rewrite (D_upd st st' d y) by auto. destruct (Nat.eqb_spec k d); subst; auto. Qed.

Lemma sig_idle_view : forall A (f : ipc -> A) x, f IWait = f IExit -> f (e_idle (signalled x)) = f (e_idle x).
Proof. intros. rewrite sig_idle. destruct (e_idle x); auto. Qed.

(* the tactics below work in a goal left by [rows]: [st] is the state before the step *)

(* rewrite an access to the state after the step *)
Ltac upd acc lem st :=
  match goal with |- context [acc ?s ?k] => erewrite (lem st s _ _ k) by (reflexivity || assumption) end.
Ltac upd_T st := upd T T_upd st.
Ltac upd_E st := upd E E_upd st.
Ltac upd_D st := upd D D_upd st.
Ltac split_eqb :=
  match goal with |- context [?a =? ?b] => destruct (Nat.eqb_spec a b) as [->|?] end.

(* the written cell looks like the old one: the program counter of the step is in HT or HI; the only
   function that is not a field update is [signalled] *)
Ltac same_cell :=
  try match goal with HT : T _ _ = _ |- _ => rewrite HT end;
  first [ reflexivity
        | match goal with HI : e_idle _ = _ |- _ => unfold isl_ent, iw_ent, tied, closing; simpl; rewrite HI end; reflexivity
        | apply sig_w | apply sig_rd | apply sig_open | apply sig_dir
        | unfold isl_ent, iw_ent, tied, closing; rewrite ?sig_open;
          first [apply sig_idle_view | f_equal; apply sig_idle_view]; reflexivity ].

(* replace [f (T s k)] by [f (T st k)] in the goal, where s is the state after the step: s does not
   differ from st in its threads, or by T_keep; the same for entries and directories *)
Ltac keep acc lem st f :=
  repeat match goal with |- context [f (acc ?s ?k)] =>
    lazymatch s with st => fail | _ => idtac end;
    first [ change (acc s k) with (acc st k)
          | erewrite (lem _ f st s _ _ k); [ | reflexivity | assumption | same_cell ] ]
  end.
Ltac keep_T st f := keep T T_keep st f.
Ltac keep_E st f := keep E E_keep st f.
Ltac keep_D st f := keep D D_keep st f.
(* turn a hypothesis [H : f (T s k) = Some a] into one about st, by T_lose; the same for directories *)
Ltac lose acc lem st f H :=
  match type of H with f (acc ?s ?k) = Some ?a =>
    first [ change (f (acc st k) = Some a) in H
          | eapply (lem _ f st s _ _ k a) in H;
            [ | reflexivity | assumption
              | try match goal with HT : T _ _ = _ |- _ => rewrite HT end;
                let H' := fresh in intros ? H'; first [exact H' | discriminate H'] ] ]
  end.
Ltac lose_T st f H := lose T T_lose st f H.
Ltac lose_D st f H := lose D D_lose st f H.

(* what the stepping thread itself holds, relies on or is about to do: read off its program counter, in HT or HI *)
Ltac own :=
  simpl; match goal with
         | HT : T _ _ = _ |- _ => rewrite HT
         | HI : e_idle _ = _ |- _ => unfold isl_ent, iw_ent, tied; rewrite HI
         end; simpl; auto.

(* a clause about every entry by itself, when one entry is written *)
Lemma E_point : forall (Q : entry -> Prop) st st' e x, ents st' = upd (ents st) e x -> e < length (ents st) ->
  (forall e', Q (E st e')) -> Q x -> forall e', Q (E st' e').
Proof.
  intros Q st st' e x H He Ho Hx e'. rewrite (E_upd st st' e x) by auto. destruct (e' =? e); auto.
Qed.

Lemma sole_holder : forall st t t', inv st -> holds_sl st t -> holds_sl st t' -> t = t'.
Proof. intros st t t' Hinv H H'. apply (i_sl _ Hinv) in H, H'. congruence. Qed.

Lemma del_cur_sl : forall c a, del_cur c = Some a -> sl_pc c = true.
Proof. intros [d p|p] a; try destruct p; simpl; auto; discriminate. Qed.
Lemma del_dir_sl : forall c a, del_dir c = Some a -> sl_pc c = true.
Proof. intros [d p|p] a; try destruct p; simpl; auto; discriminate. Qed.
Lemma rem_dir_sl : forall c a, rem_dir c = Some a -> sl_pc c = true.
Proof. intros [d p|p] a; try destruct p; simpl; auto; discriminate. Qed.

(* nobody but the writer that has acquired the lock of an entry relies on the entry being open *)
Lemma written_unused : forall st e t n, inv st -> e_w (E st e) = Some (t, true) ->
  pc_open (T st n) = Some (e, true) -> t = TC n.
Proof.
  intros st e t n Hinv Hw Ho. pose proof (i_rd _ Hinv n e) as Hr. pose proof (i_w _ Hinv e (TC n) true) as Hq.
  rewrite (i_excl _ Hinv _ _ Hw) in Hr. simpl in Hq.
  destruct (T st n) as [d p|p]; try destruct p; try destruct ok; simpl in *; try discriminate;
    injection Ho as ->; try (exfalso; apply Hr; reflexivity).
  rewrite Hw in Hq. destruct Hq as [_ Hq]. injection (Hq eq_refl). auto.
Qed.

(* an entry is closed by the writer that has acquired its lock: the other threads do not mind *)
Lemma closing_unused : forall st st' e x tw m a b, inv st -> ents st' = upd (ents st) e x -> e < length (ents st) ->
  e_open x = false -> e_w (E st e) = Some (tw, true) -> TC m <> tw ->
  pc_open (T st m) = Some (a, b) -> e_open (E st' a) = b.
Proof.
  intros st st' e x tw m a b Hinv H He Hx Hw Hm Ho. rewrite (E_upd st st' e x) by auto.
  destruct (Nat.eqb_spec a e) as [->|_]; [|apply (i_pc_open _ Hinv _ _ _ Ho)].
  destruct b; auto. destruct Hm. symmetry. eapply written_unused; eauto.
Qed.

Lemma handles_close : forall st st' e x, inv st -> e_open (E st e) = true -> e_open x = false ->
  ents st' = upd (ents st) e x -> e < length (ents st) ->
  dirs st' = upd (dirs st) (e_dir (E st e))
                 (with_handles (D st (e_dir (E st e))) (pred (d_handles (D st (e_dir (E st e)))))) ->
  e_dir (E st e) < length (dirs st) -> c_handles st'.
Proof.
  intros st st' e x Hinv Ho Hx He Hbe Hd Hbd d.
  assert (Hs : d_store (D st (e_dir (E st e))) = Some e).
  { apply (i_mapped _ Hinv). unfold tied. rewrite Ho. apply orb_true_r. }
  rewrite (D_upd st st' _ _ d Hd Hbd). pose proof (i_handles _ Hinv d) as Hh.
  destruct (Nat.eqb_spec d (e_dir (E st e))) as [->|Hne]; simpl.
  - rewrite Hs, (E_upd st st' e x e He Hbe), Nat.eqb_refl, Hx, Hh, Hs, Ho. reflexivity.
  - rewrite Hh. destruct (d_store (D st d)) as [e1|] eqn:Hs1; auto.
    rewrite (E_upd st st' e x e1 He Hbe). destruct (Nat.eqb_spec e1 e) as [->|_]; auto.
    destruct Hne. symmetry. apply (i_store _ Hinv _ _ Hs1).
Qed.

Lemma handles_unmap : forall st st' d, inv st -> dirs st' = upd (dirs st) d (with_store (D st d) None) ->
  d < length (dirs st) -> (forall e, e_open (E st' e) = e_open (E st e)) ->
  (forall e, d_store (D st d) = Some e -> e_open (E st e) = false) -> c_handles st'.
Proof.
  intros st st' d Hinv Hd Hbd HE Hc d'. rewrite (D_upd st st' _ _ d' Hd Hbd). pose proof (i_handles _ Hinv d') as Hh.
  destruct (Nat.eqb_spec d' d) as [->|_]; simpl; rewrite Hh.
  - destruct (d_store (D st d)) as [e|] eqn:Hs; auto. rewrite (Hc e); auto.
  - destruct (d_store (D st d')); auto. rewrite HE. auto.
Qed.

Lemma own_map_writer : forall p, own_map p = true -> iw_pc p = Some true.
Proof. destruct p; simpl; auto; discriminate. Qed.

(* the store lock is taken: it was free, the thread that takes it is the only new holder; it is released:
   the thread that held it no longer does, and there is no new holder *)
Lemma sl_acquire : forall st st' t, c_sl st -> sl st = None -> sl st' = Some t -> holds_sl st' t ->
  (forall u, holds_sl st' u -> u = t \/ holds_sl st u) -> c_sl st'.
Proof.
  intros st st' t Hc Hn Hs Ht Hu u. rewrite Hs. split; [intros [= <-]; exact Ht|].
  intros Hh. destruct (Hu u Hh) as [->|Ho]; [reflexivity|]. apply Hc in Ho. congruence.
Qed.
Lemma sl_release : forall st st' t, c_sl st -> holds_sl st t -> sl st' = None ->
  (forall u, holds_sl st' u -> u <> t /\ holds_sl st u) -> c_sl st'.
Proof.
  intros st st' t Hc Ht Hs Hu u. rewrite Hs. split; [discriminate|].
  intros Hh. destruct (Hu u Hh) as [Hne Ho]. apply Hc in Ho, Ht. congruence.
Qed.

Section pres.
Variables (fixed : bool) (st : state) (t : tid) (st' : state).
Hypothesis Hinv : inv st.
Hypothesis Htr : trans fixed st t st'.

Lemma pres_dirs : c_dirs st'.
Proof.
  rows Htr; intros m a Ha; simpl; rewrite ?upd_length; revert Ha; try (keep_T st pc_dirs; apply (i_dirs _ Hinv));
    upd_T st; (split_eqb; [simpl | apply (i_dirs _ Hinv)]).
  - contradiction.
  - unfold existing_dirs. rewrite filter_In, in_seq. lia.
  - intros Hin. apply (i_dirs _ Hinv n0). rewrite HT. right. exact Hin.
Qed.

Lemma pres_pc_ent : c_pc_ent st'.
Proof.
  rows Htr; intros m a Ha; simpl; rewrite ?upd_length; try (lose_T st pc_ent Ha; exact (i_pc_ent _ Hinv _ _ Ha)).
  (* a thread picks up the entry that is mapped *)
  all: revert Ha; upd_T st; (split_eqb; [|apply (i_pc_ent _ Hinv)]); intros [= <-]; eapply (i_store _ Hinv); eassumption.
Qed.

Lemma pres_ent_dir : c_ent_dir st'.
Proof.
  rows Htr; intros a; simpl length; rewrite ?upd_length; keep_E st e_dir; apply (i_ent_dir _ Hinv).
Qed.

Lemma pres_store : c_store st'.
Proof.
  rows Htr; intros k a Ha; simpl length; rewrite ?upd_length; try (lose_D st d_store Ha; keep_E st e_dir; keep_D st d_exists; exact (i_store _ Hinv _ _ Ha)).
  (* the directory that is removed is not mapped *)
  revert Ha. upd_D st. split_eqb; [|apply (i_store _ Hinv)].
  simpl. rewrite (i_rem_unmapped _ Hinv n0 d); [discriminate | own].
Qed.

(* a step that does not write the store lock leaves what the threads hold; the others take or release it *)
Lemma pres_sl : c_sl st'.
Proof.
  rows Htr; try (intros [m|k]; simpl; keep_T st sl_pc; keep_E st isl_ent; first [apply (i_sl _ Hinv (TC m)) | apply (i_sl _ Hinv (TI k))]);
    first [ eapply sl_acquire; [exact (i_sl _ Hinv) | assumption | reflexivity | | ]
          | eapply (sl_release st _ (TC n0)); [exact (i_sl _ Hinv) | own | reflexivity | ]
          | eapply (sl_release st _ (TI e0)); [exact (i_sl _ Hinv) | own | reflexivity | ] ];
    try intros [m|k]; simpl; try upd_T st; try upd_E st; rewrite ?Nat.eqb_refl; try split_eqb; unfold isl_ent; simpl;
    intuition congruence.
Qed.

(* the locks of the entries change hands: by cases on who asks, from what the stepping thread and the asking one hold *)
Lemma pres_w : c_w st'.
Proof.
  rows Htr; intros k [m|k'] b; simpl; keep_E st e_w;
    try (keep_T st w_pc; keep_E st iw_ent; first [apply (i_w _ Hinv k (TC m)) | apply (i_w _ Hinv k (TI k'))]);
    try (pose proof (i_w _ Hinv e (TC n0) true) as Hown; pose proof (i_w _ Hinv e (TC n0) false) as Hown');
    try (pose proof (i_w _ Hinv e0 (TI e0) true) as Hown; pose proof (i_w _ Hinv e0 (TI e0) false) as Hown');
    try pose proof (i_w _ Hinv k (TC m) b) as Hold; try pose proof (i_w _ Hinv k (TI k') b) as Hold;
    try upd_T st; keep_T st w_pc; repeat upd_E st; repeat split_eqb; simpl in *; unfold iw_ent in *;
    try rewrite HT in *; try rewrite HI in *; simpl in *; try exact Hold; intuition congruence.
Qed.

Lemma pres_rd : c_rd st'.
Proof.
  rows Htr; intros m k; try (keep_E st e_rd; keep_T st rd_pc; apply (i_rd _ Hinv));
    pose proof (i_rd _ Hinv m k) as Hold; pose proof (i_rd _ Hinv n0 k) as Hown; rewrite HT in Hown;
    upd_E st; upd_T st; repeat split_eqb; simpl in *; rewrite ?in_remove_nat; intuition congruence.
Qed.

Lemma pres_excl : c_excl st'.
Proof.
  unfold c_excl. rows Htr; first [ exact (i_excl _ Hinv) |
    eapply (E_point (fun x => forall t, e_w x = Some (t, true) -> e_rd x = []));
      [reflexivity | assumption | exact (i_excl _ Hinv) | ];
    intros t0; simpl; rewrite ?sig_w, ?sig_rd; try solve [exact (i_excl _ Hinv _ t0) | discriminate | auto]].
  - rewrite H. discriminate.
  - intros Hw. rewrite (i_excl _ Hinv _ _ Hw). reflexivity.
Qed.

Lemma pres_req_ent : c_req_ent st'.
Proof.
  rows Htr; intros m a b Ha; try (lose_T st req_ent Ha; keep_E st e_dir; exact (i_req_ent _ Hinv _ _ _ Ha)).
  revert Ha. upd_T st. split_eqb; [|apply (i_req_ent _ Hinv)].
  intros [= <- <-]. eapply (i_store _ Hinv); eassumption.
Qed.

Lemma pres_pc_open : c_pc_open st'.
Proof.
  rows Htr; intros m a b Ha; try (lose_T st pc_open Ha; keep_E st e_open; exact (i_pc_open _ Hinv _ _ _ Ha));
    keep_E st e_open; revert Ha; try upd_T st; try split_eqb; try apply (i_pc_open _ Hinv);
    try (intros [= <- <-]; try upd_E st; rewrite ?Nat.eqb_refl; assumption || reflexivity).
  (* closing an entry *)
  2, 3: eapply (closing_unused st _ e0 _ (TI e0)); [assumption | reflexivity | assumption | reflexivity | | discriminate].
  2, 3: apply (i_w _ Hinv); own.
  eapply (closing_unused st _ e _ (TC n0)); [assumption | reflexivity | assumption | reflexivity | | congruence].
  apply (i_w _ Hinv). own.
Qed.

Lemma pres_idle_open : c_idle_open st'.
Proof.
  unfold c_idle_open. rows Htr; first [ exact (i_idle_open _ Hinv) |
    eapply (E_point (fun x => forall b, idle_open (e_idle x) = Some b -> e_open x = b));
      [reflexivity | assumption | exact (i_idle_open _ Hinv) | ];
    intros b; simpl; rewrite ?sig_idle, ?sig_open;
    try solve [exact (i_idle_open _ Hinv _ b) | discriminate | intros [= <-]; auto
              | intros [= <-]; apply (i_idle_open _ Hinv); own]].
  - pose proof (i_idle_open _ Hinv e b). destruct (e_idle (E st e)); auto.
  - (* a deletion closes the entry: it holds the lock of the entry, so the routine is not about to close it *)
    pose proof (i_idle_open _ Hinv e b) as Ho. pose proof (i_w _ Hinv e (TI e) true) as Hw.
    assert (Hw' : e_w (E st e) = Some (TC n0, true)) by (apply (i_w _ Hinv); own).
    unfold holds_w, iw_ent in Hw. destruct (e_idle (E st e)); simpl in *; try discriminate; intros [= <-]; auto.
    rewrite Hw' in Hw. destruct Hw as [_ Hw]. discriminate Hw. auto.
Qed.

(* entries may lose their claim on the map; a map entry may go when its entry has none *)
Lemma pres_mapped : c_mapped st'.
Proof.
  rows Htr; intros k; try (keep_E st tied; keep_E st e_dir; keep_D st d_store; apply (i_mapped _ Hinv));
    keep_E st e_dir; try keep_D st d_store; intros Hp.
  - apply (i_mapped _ Hinv). revert Hp. upd_E st. split_eqb; auto. unfold tied. simpl.
    rewrite orb_false_r. intros ->. reflexivity.
  - (* the deletion unmaps a directory: its entry has no claim *)
    change (tied (E st k) = true) in Hp. pose proof (i_mapped _ Hinv _ Hp) as Hs. upd_D st.
    destruct (Nat.eqb_spec (e_dir (E st k)) d) as [Hk|_]; [|exact Hs]. rewrite Hk in Hs.
    rewrite (i_del_untied _ Hinv n0 d k) in Hp; [discriminate | own | exact Hs].
  - apply (i_mapped _ Hinv). revert Hp. upd_E st. split_eqb; auto. unfold tied. rewrite H. intros _. apply orb_true_r.
  - apply (i_mapped _ Hinv). revert Hp. upd_E st. split_eqb; auto. discriminate.
  - (* the routine unmaps its directory after it has closed the shard *)
    revert Hp. keep_E st tied. intros Hp. pose proof (i_mapped _ Hinv _ Hp) as Hs. upd_D st.
    destruct (Nat.eqb_spec (e_dir (E st k)) (e_dir (E st e0))) as [Hk|_]; [|exact Hs].
    rewrite Hk, H in Hs. injection Hs as <-. unfold tied in Hp.
    rewrite HI, (i_idle_open _ Hinv e0 false) in Hp by own. discriminate.
  - revert Hp. upd_E st. split_eqb.
    + unfold tied. simpl. rewrite (i_idle_open _ Hinv e0 false) by own. discriminate.
    + intros Hp. pose proof (i_mapped _ Hinv _ Hp) as Hs. upd_D st.
      destruct (Nat.eqb_spec (e_dir (E st k)) (e_dir (E st e0))) as [Hk|_]; [|exact Hs].
      rewrite Hk, (i_mapped _ Hinv e0) in Hs by own. congruence.
Qed.

Lemma pres_handles : c_handles st'.
Proof.
  rows Htr; try (intros k; keep_D st d_handles; keep_D st d_store; rewrite (i_handles _ Hinv k);
                 destruct (d_store (D st k)); [keep_E st e_open|]; reflexivity).
  3, 4: eapply (handles_close st _ e0); try reflexivity; auto; apply (i_idle_open _ Hinv); own.
  - apply handles_close with st e (with_open (E st e) false); auto.
    apply (i_pc_open _ Hinv n0). own.
  - apply handles_unmap with st d; auto. intros e Hs.
    pose proof (i_del_untied _ Hinv n0 d e) as Hp. rewrite HT in Hp. apply orb_false_elim in Hp; tauto.
  - apply handles_unmap with st (e_dir (E st e0)); auto; [intros k; keep_E st e_open; reflexivity|]. intros e Hs.
    rewrite Hs in H. injection H as ->. apply (i_idle_open _ Hinv). own.
  - apply handles_unmap with st (e_dir (E st e0)); auto; [intros k; keep_E st e_open; reflexivity|]. intros e Hs.
    rewrite (i_mapped _ Hinv e0) in Hs by own. injection Hs as <-.
    apply (i_idle_open _ Hinv). own.
Qed.

(* map entries are unmapped under shardLock: meanwhile no deletion is under way but that of the holder *)
Lemma pres_cur_mapped : c_cur_mapped st'.
Proof.
  rows Htr; intros m a l Ha;
    try (lose_T st del_cur Ha; destruct (i_cur_mapped _ Hinv _ _ _ Ha) as (d1 & r1 & -> & Hs);
         exists d1, r1; split; [reflexivity|]; keep_D st d_store; exact Hs);
    revert Ha; try upd_T st; try split_eqb; try discriminate.
  4, 5: intros Hc; apply del_cur_sl in Hc; apply (sole_holder st (TI e0) (TC m)) in Hc; [congruence | auto | own].
  - intros [= <- <-]. eauto.
  - apply (i_cur_mapped _ Hinv).
  - intros Hc. apply del_cur_sl in Hc. apply (sole_holder st (TC n0) (TC m)) in Hc; [congruence | auto | own].
Qed.

Lemma pres_rem_unmapped : c_rem_unmapped st'.
Proof.
  rows Htr; intros m a Ha;
    try (lose_T st rem_dir Ha; apply (i_rem_unmapped _ Hinv) in Ha;
         match goal with |- ?x = None => destruct x eqn:Hs end; [lose_D st d_store Hs; congruence | reflexivity]).
  revert Ha. upd_T st. upd_D st. destruct (Nat.eqb_spec m n0) as [->|_].
  - intros [= <-]. rewrite Nat.eqb_refl. reflexivity.
  - intros Hr. destruct (a =? d); auto. apply (i_rem_unmapped _ Hinv _ _ Hr).
Qed.

Lemma pres_del_untied : c_del_untied st'.
Proof.
  rows Htr; intros m a k Ha Hs;
    try (lose_T st del_dir Ha; lose_D st d_store Hs; keep_E st tied; exact (i_del_untied _ Hinv _ _ _ Ha Hs));
    revert Ha Hs; try upd_T st; try split_eqb; try discriminate.
  3, 5: intros Hc; apply del_dir_sl in Hc; apply (sole_holder st (TC n0) (TC m)) in Hc; [congruence | auto | own].
  - intros [= <-] Hs. change (d_store (D st d) = Some k) in Hs. congruence.
  - apply (i_del_untied _ Hinv).
  - (* the deletion has closed the entry and still holds its lock: the routine of the entry is not in between *)
    destruct (i_cur_mapped _ Hinv n0 e todo) as (d1 & r & -> & Hs'); [own|].
    intros [= <-] Hs. change (d_store (D st d1) = Some k) in Hs. rewrite Hs' in Hs. injection Hs as <-.
    upd_E st. rewrite Nat.eqb_refl. unfold tied. simpl.
    rewrite (i_pc_open _ Hinv n0 e false) by own.
    destruct (own_map (e_idle (E st e))) eqn:Ho; auto. apply own_map_writer in Ho.
    assert (Hw : e_w (E st e) = Some (TI e, true)) by (apply (i_w _ Hinv); simpl; auto).
    assert (Hw' : e_w (E st e) = Some (TC n0, true)) by (apply (i_w _ Hinv); own).
    congruence.
  - (* a routine that finds its shard open: the entry is not one a deletion is about to unmap *)
    intros Ha Hs. pose proof (i_del_untied _ Hinv m a k Ha Hs) as Hp. upd_E st. split_eqb; auto.
    unfold tied in Hp. rewrite H, orb_true_r in Hp. discriminate.
  - intros Ha Hs. lose_D st d_store Hs.
    pose proof (i_del_untied _ Hinv m a k Ha Hs) as Hp. upd_E st. split_eqb; auto.
  - intros Hc. apply del_dir_sl in Hc. apply (sole_holder st (TI e0) (TC m)) in Hc; [congruence | auto | own].
Qed.

Lemma pres_unloading : c_unloading st'.
Proof.
  rows Htr; intros k a Hs Ho;
    try (lose_D st d_store Hs; revert Ho; keep_E st e_open; keep_E st closing; intros Ho;
         destruct (i_unloading _ Hinv _ _ Hs Ho) as [Hc|[m Hm]]; [left; exact Hc | right; exists m];
         first [ exact Hm | upd_T st; split_eqb; [revert Hm; rewrite HT; simpl | exact Hm] ];
         first [ discriminate | destruct todo; simpl; [discriminate | intros Hm; apply andb_prop in Hm; tauto] ]).
  3, 4: lose_D st d_store Hs; revert Ho; upd_E st; (split_eqb; [auto|]); intros Ho;
    destruct (i_unloading _ Hinv _ _ Hs Ho) as [Hc|[m Hm]]; eauto.
  (* the routine unmaps its directory *)
  3, 5: revert Hs; upd_D st; (split_eqb; [discriminate|]); intros Hs; revert Ho; upd_E st;
    (split_eqb; [apply (i_store _ Hinv) in Hs; intuition congruence|]); intros Ho;
    destruct (i_unloading _ Hinv _ _ Hs Ho) as [Hc|[m Hm]]; eauto.
  - (* the deletion closes its entry and goes on to unmap it *)
    lose_D st d_store Hs. revert Ho. upd_E st. destruct (Nat.eqb_spec a e) as [->|_]; intros Ho.
    + right. exists n0. upd_T st. rewrite Nat.eqb_refl.
      destruct (i_cur_mapped _ Hinv n0 e todo) as (d2 & r & -> & Hs2); [own|].
      apply (i_store _ Hinv) in Hs, Hs2. simpl. rewrite Nat.eqb_refl. apply Nat.eqb_eq. intuition congruence.
    + destruct (i_unloading _ Hinv _ _ Hs Ho) as [Hc|[m Hm]]; auto. right. exists m. upd_T st.
      split_eqb; [rewrite HT in Hm; discriminate | auto].
  - (* the deletion unmaps the directory *)
    revert Hs. upd_D st. split_eqb; [discriminate|]. intros Hs.
    destruct (i_unloading _ Hinv _ _ Hs Ho) as [Hc|[m Hm]]; auto. right. exists m. upd_T st.
    split_eqb; auto. rewrite HT in Hm. simpl in Hm. apply Nat.eqb_eq in Hm. congruence.
  - (* the routine finds another entry in the map: its own is not mapped *)
    change (d_store (D st k) = Some a) in Hs. revert Ho. upd_E st.
    split_eqb; [destruct H; destruct (i_store _ Hinv _ _ Hs) as (_ & -> & _); exact Hs|]. intros Ho.
    destruct (i_unloading _ Hinv _ _ Hs Ho) as [Hc|[m Hm]]; eauto.
Qed.
End pres.

Lemma req_ent_pc : forall c d e, req_ent c = Some (d, e) -> pc_ent c = Some e.
Proof. intros [d0 p|p] d e; try destruct p; simpl; congruence. Qed.
Lemma pc_open_ent : forall c e b, pc_open c = Some (e, b) -> pc_ent c = Some e.
Proof. intros [d0 p|p] e b; try destruct p; try destruct ok; simpl; congruence. Qed.

(* loading a shard: nothing refers to the new entry yet, and through the views of the locks it looks like
   the default entry; the thread holds shardLock, so no deletion is under way *)
Lemma load_inv : forall st n d, inv st -> T st n = CReq d RLoad -> n < length (thr st) ->
  d < length (dirs st) -> d_store (D st d) = None -> inv (load st n d).
Proof.
  intros st n d Hinv HT Hn Hd Hs. set (st' := load st n d). set (k := length (ents st)).
  set (x := mkEntry d n true None [] IWait).
  assert (HT' : forall m, T st' m = if m =? n then CReq d (RRelSL k) else T st m)
    by (intro; apply T_upd; auto).
  assert (HE' : forall e, E st' e = if e =? k then x else E st e) by (intro; apply nth_app_new).
  assert (HD' : forall d', D st' d' = if d' =? d then mkDir (Some k) true (S (d_handles (D st d))) else D st d')
    by (intro; apply D_upd; auto).
  assert (Hl : length (ents st') = S k) by apply len_ents_add_ent.
  assert (Hld : length (dirs st') = length (dirs st)) by apply upd_length.
  assert (Hsl : sl st' = sl st) by reflexivity.
  assert (Hfresh : forall m e, pc_ent (T st m) = Some e -> e =? k = false).
  { intros m e He. apply Nat.eqb_neq. apply (i_pc_ent _ Hinv) in He. unfold k. lia. }
  assert (Hfresh' : forall d' e, d_store (D st d') = Some e -> e =? k = false).
  { intros d' e He. apply Nat.eqb_neq. apply (i_store _ Hinv) in He. unfold k. lia. }
  assert (Hsole : forall m, sl_pc (T st m) = true -> m = n).
  { intros m Hm. assert (Hq : TC n = TC m) by (apply (sole_holder st); auto; own).
    congruence. }
  assert (ST : forall A (f : cthread -> A) m, f (CReq d (RRelSL k)) = f (CReq d RLoad) -> f (T st' m) = f (T st m)).
  { intros A f m Hf. rewrite HT'. destruct (Nat.eqb_spec m n) as [->|_]; congruence. }
  assert (SE : forall A (f : entry -> A) e, f x = f dent -> f (E st' e) = f (E st e)).
  { intros A f e Hf. rewrite HE'. destruct (Nat.eqb_spec e k) as [->|_]; auto. rewrite E_overflow; auto. }
  clearbody st'. constructor.
  - intros m a. rewrite HT', Hld. destruct (m =? n); [|apply (i_dirs _ Hinv)]. simpl. intuition congruence.
  - intros m a. rewrite HT', Hl. destruct (m =? n); [intros [= <-]; auto|].
    intros He. apply (i_pc_ent _ Hinv) in He. fold k in He. lia.
  - intros e. rewrite HE', Hl, Hld. destruct (Nat.eqb_spec e k); [auto|]. intros He. apply (i_ent_dir _ Hinv). fold k. lia.
  - intros d' e. rewrite HD', HE', Hl. destruct (d' =? d) eqn:Hdd; simpl.
    + intros [= <-]. rewrite Nat.eqb_refl. apply Nat.eqb_eq in Hdd. auto.
    + intros He. rewrite (Hfresh' _ _ He). apply (i_store _ Hinv) in He. fold k in He. intuition lia.
  - intros [m|e]; simpl; rewrite Hsl, ?(ST _ sl_pc), ?(SE _ isl_ent) by reflexivity; apply (i_sl _ Hinv).
  - intros e [m|e'] b; simpl; rewrite (SE _ e_w), ?(ST _ w_pc), ?(SE _ iw_ent) by reflexivity; apply (i_w _ Hinv).
  - intros m e. rewrite (SE _ e_rd), (ST _ rd_pc) by reflexivity. apply (i_rd _ Hinv).
  - intros e t. rewrite (SE _ e_w), (SE _ e_rd) by reflexivity. apply (i_excl _ Hinv).
  - intros m d' e. rewrite HT', HE'. destruct (m =? n).
    + intros [= <- <-]. rewrite Nat.eqb_refl. reflexivity.
    + intros He. rewrite (Hfresh m e) by (eapply req_ent_pc; eauto). apply (i_req_ent _ Hinv _ _ _ He).
  - intros m e b. rewrite HT', HE'. destruct (m =? n); [discriminate|].
    intros He. rewrite (Hfresh m e) by (eapply pc_open_ent; eauto). apply (i_pc_open _ Hinv _ _ _ He).
  - intros e b. rewrite HE'. destruct (e =? k); [discriminate | apply (i_idle_open _ Hinv)].
  - intros e. rewrite !HE'. destruct (e =? k) eqn:Hek; simpl.
    + intros _. rewrite HD', Nat.eqb_refl. apply Nat.eqb_eq in Hek. simpl. congruence.
    + intros Hp. apply (i_mapped _ Hinv) in Hp. rewrite HD'. destruct (Nat.eqb_spec (e_dir (E st e)) d); congruence.
  - intros d'. rewrite HD'. pose proof (i_handles _ Hinv d') as Hh. destruct (Nat.eqb_spec d' d) as [->|_]; simpl.
    + rewrite HE', Nat.eqb_refl. rewrite Hs in Hh. simpl. lia.
    + rewrite Hh. destruct (d_store (D st d')) eqn:He; auto. rewrite HE', (Hfresh' _ _ He). auto.
  - intros m e l. rewrite HT'. destruct (m =? n); [discriminate|].
    intros He. apply (i_cur_mapped _ Hinv) in He. destruct He as (d1 & r & -> & He). exists d1, r. rewrite HD'.
    destruct (Nat.eqb_spec d1 d); [congruence | auto].
  - intros m d' e. rewrite HT'. destruct (Nat.eqb_spec m n) as [->|Hm]; [discriminate|].
    intros Hc. pose proof (del_dir_sl _ _ Hc) as Hq. apply Hsole in Hq. congruence.
  - intros m d'. rewrite HT'. destruct (Nat.eqb_spec m n) as [->|Hm]; [discriminate|].
    intros Hc. pose proof (rem_dir_sl _ _ Hc) as Hq. apply Hsole in Hq. congruence.
  - intros d' e. rewrite HD', HE'. destruct (Nat.eqb_spec d' d) as [->|_]; simpl.
    + intros [= <-]. rewrite Nat.eqb_refl. discriminate.
    + intros He. rewrite (Hfresh' _ _ He). intros Ho.
      destruct (i_unloading _ Hinv _ _ He Ho) as [Hc|[m Hm]]; auto. right. exists m. rewrite HT'.
      destruct (Nat.eqb_spec m n) as [->|_]; auto. rewrite HT in Hm. discriminate.
Qed.

Lemma inv_step : forall fixed st t st', inv st -> step fixed st t = Some st' -> inv st'.
Proof.
  intros fixed st t st' Hinv H.
  destruct (step_trans _ _ _ _ Hinv H) as [Htr | (n & d & -> & HT & Hn & Hd & Hs & ->)]; [|apply load_inv; auto].
  constructor;
    [ eapply pres_dirs | eapply pres_pc_ent | eapply pres_ent_dir | eapply pres_store | eapply pres_sl
    | eapply pres_w | eapply pres_rd | eapply pres_excl | eapply pres_req_ent | eapply pres_pc_open
    | eapply pres_idle_open | eapply pres_mapped | eapply pres_handles | eapply pres_cur_mapped
    | eapply pres_del_untied | eapply pres_rem_unmapped | eapply pres_unloading ]; eassumption.
Qed.

Lemma init_thread : forall nd specs n,
  T (init nd specs) n = dthr \/ (exists d, T (init nd specs) n = CReq d RAcqSL /\ In (SReq d) specs)
  \/ T (init nd specs) n = CDel DAcqSL.
Proof.
  intros nd specs n. unfold T. simpl.
  destruct (nth_in_or_default n (map spec_thread specs) dthr) as [Hin| ->]; auto.
  apply in_map_iff in Hin. destruct Hin as ([d|] & <- & Hin); simpl; eauto 7.
Qed.

Lemma inv_init : forall nd specs, Forall (spec_ok nd) specs -> inv (init nd specs).
Proof.
  intros nd specs Hok. set (st := init nd specs).
  assert (HE : forall e, E st e = dent) by (intros [|e]; reflexivity).
  assert (HD : forall d, D st d = ddir) by (intros; apply nth_repeat).
  pose proof (init_thread nd specs) as HT. fold st in HT.
  constructor;
    (* no thread has started, there is no entry, nothing is mapped *)
    try (red; intros n; intros; destruct (HT n) as [Hq|[(d' & Hq & _)|Hq]]; rewrite Hq in *; discriminate);
    try (red; intros; rewrite ?HD, ?HE in *; simpl in *; (discriminate || reflexivity || lia)).
  - intros n d Hin. destruct (HT n) as [Hq|[(d' & Hq & Hs)|Hq]]; rewrite Hq in Hin; simpl in Hin; try contradiction.
    destruct Hin as [<-|[]]. simpl. rewrite repeat_length. rewrite Forall_forall in Hok. apply (Hok _ Hs).
  - intros [n|e]; simpl; [destruct (HT n) as [Hq|[(d' & Hq & _)|Hq]]; rewrite Hq | rewrite HE]; split; discriminate.
  - intros e [n|e'] b; simpl; rewrite HE; [destruct (HT n) as [Hq|[(d' & Hq & _)|Hq]]; rewrite Hq|]; simpl; split;
      try discriminate; intros [_ Hx]; discriminate.
  - intros n e. rewrite HE. destruct (HT n) as [Hq|[(d' & Hq & _)|Hq]]; rewrite Hq; simpl; split;
      (contradiction || discriminate).
Qed.

Lemma inv_exec : forall fixed st l st', exec fixed st l st' -> inv st -> inv st'.
Proof. induction 1; intros; auto. apply IHexec. eapply inv_step; eauto. Qed.

Lemma inv_reachable : forall fixed st, reachable fixed st -> inv st.
Proof. intros fixed st (nd & specs & sched & Hok & Hex). eapply inv_exec; eauto. apply inv_init; auto. Qed.

Lemma inv_safe : forall st, inv st -> safe st.
Proof.
  intros st Hinv. split; [|split].
  - intros n d e Hu.
    assert (Hc : pc_open (T st n) = Some (e, true) /\ req_ent (T st n) = Some (d, e) /\ rd_pc (T st n) = Some e)
      by (destruct Hu as [->| ->]; auto).
    destruct Hc as (Ho & Hq & Hr). apply (i_pc_open _ Hinv) in Ho. apply (i_req_ent _ Hinv) in Hq.
    repeat split; auto.
    + apply (i_rd _ Hinv); auto.
    + assert (Hs : d_store (D st (e_dir (E st e))) = Some e) by (apply (i_mapped _ Hinv); unfold tied; rewrite Ho; apply orb_true_r).
      rewrite Hq in Hs. apply (i_store _ Hinv _ _ Hs).
  - intros d. rewrite (i_handles _ Hinv d). destruct (d_store (D st d)); auto. destruct (e_open (E st n)); auto.
  - intros d Hh. rewrite (i_handles _ Hinv d) in Hh. destruct (d_store (D st d)) eqn:Hs; try lia.
    apply (i_store _ Hinv _ _ Hs).
Qed.

Lemma safety : forall fixed st, reachable fixed st -> safe st.
Proof. intros. apply inv_safe. eapply inv_reachable; eauto. Qed.
