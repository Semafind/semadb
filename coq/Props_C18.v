(* Props_C18.v -- property C18: no request crashes the server; invalid input
   is refused without side effects.  The statements; the lemmas are in Proofs_C18.v.

   The model (Model_C18.v) starts after Go's JSON / MessagePack decoders.
   "For all byte strings" is therefore NOT a theorem here: the decoders, the
   middleware and the router are exercised by the structured-mutation and
   raw-byte streams of the harness and judged by Run_C18.v (partial).

   What IS proved, for every decoded request, over the constants that
   gen/gen_doc_limits.py regenerates from the Go sources on every run
   (DocLimits.v: enf_* from the Validate() bodies, doc_* from the binding tags,
   vs_*/eval_*/ccm_*/hdl_* structural facts): a vector whose length differs
   from the index dimension never reaches a distance computation, on the search
   path and on the write path of both API versions (the hypothesis of C20's
   no-out-of-bounds theorem); ValidateSchema checks every position the
   evaluator reaches; accepted requests satisfy every documented bound but one;
   an accepted vector index can be built; a rejected request performs no
   cluster call and an accepted one performs it; no v1 handler panics.  The
   gaps of the pinned tree (NaN alpha, triggerThreshold, unbuildable product
   quantizer, nil dereference of v1 handlers on v2 collections) are closed by
   fix commits; the _v0 theorems keep the witnesses the pinned checks accepted. *)
From Coq Require Import List ZArith NArith Bool String QArith.
From Semadb Require Import DocLimits Dyadic Model_C18 Proofs_C18.
Import ListNotations.
Open Scope Z_scope.

(* search path: if the handler's validation (SearchRequest.Validate + Query.ValidateSchema)
   accepts a request against a schema that passed creation-time validation, then every
   (index dimension, query vector length) pair the evaluator of shard/index/search.go hands
   to a distance function -- through _and, _or and the filters of vectorFlat / vectorVamana /
   text leaves -- has equal components, and the common length is a documented vector size *)
Theorem c18_dimension_guard : forall schema req,
  validate_ischema schema = true -> validate_search schema req = true ->
  Forall (fun p => fst p = snd p /\ doc_dim_ok (snd p) = true) (eval_reach schema (sr_query req)).
Proof. exact dimension_guard. Qed.
Print Assumptions c18_dimension_guard.

(* the v1 search handler goes through the same evaluator with the query it builds *)
Theorem c18_dimension_guard_v1 : forall schema req,
  handler_search1 schema req = Call OpSearch ->
  Forall (fun p => fst p = snd p) (eval_reach schema (v1_query req)).
Proof. exact dimension_guard_v1. Qed.
Print Assumptions c18_dimension_guard_v1.

(* write path: a point accepted by CheckCompatibleMap (+ id and size tests) has exactly the
   index dimension for every vector property that the index dispatcher will extract.  The value
   CheckCompatibleMap validates (ccm_value) IS the value the dispatcher reaches (pval_of, msgpack
   Decoder.Query on the stored bytes) because both resolve the property by splitting its name on "."
   and walking maps -- side conditions ccm_resolves_by_nested_walk and dispatch_resolves_by_query, read
   off the two sources by the translator; e.g. a look-up of the whole name as a literal root key first
   makes the first one false and this theorem unprovable *)
Theorem c18_write_dimension_guard : forall schema maxsize create_new p,
  validate_ischema schema = true -> point_ok schema maxsize create_new p = true ->
  Forall (fun pr => fst pr = snd pr /\ doc_dim_ok (snd pr) = true) (write_reach schema p).
Proof. exact write_dimension_guard. Qed.
Print Assumptions c18_write_dimension_guard.

Theorem c18_write_dimension_guard_requests : forall schema req,
  validate_ischema schema = true ->
  (validate_insert2 schema req = true \/ validate_update2 schema req = true) ->
  Forall (fun p => Forall (fun pr => fst pr = snd pr /\ doc_dim_ok (snd pr) = true) (write_reach schema p)) (ps_points req).
Proof.
  intros schema req W [H|H]; apply andb_true_iff in H as [_ H]; exact (points_dimension_guard _ _ _ _ W H).
Qed.
Print Assumptions c18_write_dimension_guard_requests.

Theorem c18_write_dimension_guard_v1 : forall schema req n d,
  handler_insert1 schema req = Call (OpInsert n) \/ handler_update1 schema req = Call (OpUpdate n) ->
  v1_dim schema = Some d -> Forall (fun p => p1_len p = d) (ps1_points req).
Proof. exact write_guard_v1. Qed.
Print Assumptions c18_write_dimension_guard_v1.

(* ValidateSchema and the evaluator visit the same leaves: every pair the evaluator can reach
   is one of the pairs ValidateSchema compares, and ValidateSchema accepting means all of them
   are equal.  (Side conditions on the generated structural flags: ValidateSchema recurses into
   _and, _or and the three filters and has both length comparisons.) *)
Theorem c18_filter_recursion_covered : forall schema q,
  incl (eval_reach schema q) (vs_pairs schema q) /\
  (validate_schema schema q = true -> Forall (fun p => fst p = snd p) (vs_pairs schema q)).
Proof.
  intros schema q. split; [exact (reach_covered schema q)|]. intros H.
  eapply Forall_impl; [|exact (vs_sound schema q H)]. intros p [E _]. exact E.
Qed.
Print Assumptions c18_filter_recursion_covered.

(* documented limits.  A request accepted by the hand-written validation satisfies every bound
   documented by the binding tags (the published JSON schema): collection creation when the
   indexSchema is present (without it: c18_undocumented_gap_index_schema_required), search requests,
   point batches, both API versions.  Proved from the side conditions "enf_* within doc_*" that Coq
   evaluates on the regenerated constants *)
Theorem c18_limits :
  (forall r, validate_create2 r = true -> nogap_create2 r = true -> doc_create2 r = 0%N) /\
  (forall r, lens_nonneg (sr_query r) = true -> validate_request r = true -> doc_search2 r = true) /\
  (forall s r, validate_insert2 s r = true -> doc_count doc_points_insert_max (ps_points r) = true) /\
  (forall s r, validate_update2 s r = true -> doc_count doc_points_update_max (ps_points r) = true) /\
  (forall ids, validate_delete enf_delete_ids_min enf_delete_ids_max enf_delete_ids_uuid ids = true ->
               doc_count doc_delete_ids_max ids = true /\ forallb (fun b => b) ids = true) /\
  (forall r, validate_create1 r = true -> doc_create1 r = 0%N /\ validate_ischema (v1_schema r) = true) /\
  (forall r, validate_search1 r = true -> doc_search1 r = true) /\
  (forall r, validate_insert1 r = true ->
             doc_count doc_v1_points_insert_max (ps1_points r) = true /\
             forallb (fun p => in_range 1 doc_v1_insert_vector_max (p1_len p)) (ps1_points r) = true) /\
  (forall r, validate_update1 r = true ->
             doc_count doc_v1_points_update_max (ps1_points r) = true /\
             forallb (fun p => in_range 1 doc_v1_update_vector_max (p1_len p)) (ps1_points r) = true) /\
  (forall ids, validate_delete enf_v1_delete_ids_min enf_v1_delete_ids_max true ids = true ->
               doc_count doc_v1_delete_ids_max ids = true /\ forallb (fun b => b) ids = true).
Proof.
  destruct points_doc as [A [B [C [D [E F]]]]].
  split; [exact create2_doc|]. split; [exact search2_doc|]. split; [exact A|]. split; [exact B|].
  split; [exact C|]. split; [intros r H; split; [exact (create1_doc r H) | exact (v1_schema_valid r H)]|].
  split; [exact search1_doc|]. split; [exact D|]. split; [exact E | exact F].
Qed.
Print Assumptions c18_limits.

(* the one documented limit that Validate() does NOT enforce: indexSchema is tagged required, a
   request without it is accepted (code 23 of doc_create2).  The published OpenAPI file does not
   list it as required, so this is left as a documentation discrepancy *)
Theorem c18_undocumented_gap_index_schema_required :
  validate_create2 (mkC2 3 [97; 98; 99]%N false []) = true /\
  doc_create2 (mkC2 3 [97; 98; 99]%N false []) = 23%N.
Proof. vm_compute. split; reflexivity. Qed.
Print Assumptions c18_undocumented_gap_index_schema_required.

(* an accepted vector index can always be built: a product quantizer is only accepted with a metric
   it serves and a numSubVectors that divides the vector size (Quantizer.ValidateFor), so no later
   insert or search fails in vectorstore.New *)
Theorem c18_accepted_index_buildable :
  (forall p, validate_flat p = true -> pq_unbuildable p = false) /\
  (forall p, validate_vamana p = true -> pq_unbuildable p = false).
Proof. exact accepted_index_buildable. Qed.
Print Assumptions c18_accepted_index_buildable.

(* the former gaps: alpha = NaN, a binary-quantizer triggerThreshold outside 0..50000 next to a
   threshold, a product quantizer with 2 sub-vectors on a 5-dimensional index.  All three creation
   requests are refused now; the checks of the pinned tree accepted them *)
Theorem c18_former_gaps_closed :
  validate_create2 (mkC2 3 [97; 98; 99]%N true (gap_schema f32_nan None)) = false /\
  validate_create2 (mkC2 3 [97; 98; 99]%N true (gap_schema f32_1_2 (Some (mkQz "binary" (Some (mkBQ true (-5) "hamming")) None)))) = false /\
  validate_create2 (mkC2 3 [97; 98; 99]%N true gap_schema_pq) = false.
Proof. vm_compute. repeat split; reflexivity. Qed.
Print Assumptions c18_former_gaps_closed.

Theorem c18_former_gaps_refuted_v0 :
  alpha_ok_gen false f32_nan = true /\ f32_in_Q doc_alpha_min doc_alpha_max f32_nan = false /\
  validate_bq_gen true (mkBQ true (-5) "hamming") = true /\ doc_bq (mkBQ true (-5) "hamming") = 22%N /\
  pq_unbuildable (mkVP 5 "euclidean" 0 0 0%N (Some (mkQz "product" None (Some (mkPQ 4 2 1000))))) = true /\
  validate_oquant (Some (mkQz "product" None (Some (mkPQ 4 2 1000)))) = true.
Proof. vm_compute. repeat split; reflexivity. Qed.
Print Assumptions c18_former_gaps_refuted_v0.

(* a rejected request performs no cluster call: every handler returns before its first
   clusterNode.* call when validation fails (side condition: the generator found the
   validation calls textually before the cluster call in every handler body) *)
Theorem c18_invalid_no_effect :
  (forall r, validate_create2 r = false -> handler_create2 r = Reject) /\
  (forall s r, validate_insert2 s r = false -> handler_insert2 s r = Reject) /\
  (forall s r, validate_update2 s r = false -> handler_update2 s r = Reject) /\
  (forall ids, validate_delete enf_delete_ids_min enf_delete_ids_max enf_delete_ids_uuid ids = false -> handler_delete2 ids = Reject) /\
  (forall s r, validate_search s r = false -> handler_search2 s r = Reject) /\
  (forall r, validate_create1 r = false -> handler_create1 r = Reject) /\
  (forall s r, validate_insert1 r = false -> handler_insert1 s r = Reject) /\
  (forall s r, validate_update1 r = false -> handler_update1 s r = Reject) /\
  (forall ids, validate_delete enf_v1_delete_ids_min enf_v1_delete_ids_max true ids = false -> handler_delete1 ids = Reject) /\
  (forall s r, validate_search1 r = false -> handler_search1 s r = Reject) /\
  (forall s r d, v1_dim s = Some d -> points1_fit d r = false ->
                 handler_insert1 s r = Reject /\ handler_update1 s r = Reject) /\
  (forall s r d, v1_dim s = Some d -> s1_len r <> d -> handler_search1 s r = Reject) /\
  (* v1 request on a collection without a vamana index named "vector" *)
  (forall s, v1_dim s = None ->
     handler_get1 s = Reject /\ (forall r, handler_insert1 s r = Reject) /\
     (forall r, handler_update1 s r = Reject) /\ (forall r, handler_search1 s r = Reject)).
Proof.
  destruct invalid_no_effect_v2 as [A [B [C [D E]]]]. destruct invalid_no_effect_v1 as [F [G [H [I [J [K L]]]]]].
  repeat split; try assumption; intros;
    first [ apply (K s r d); assumption | apply (v1_missing_index_rejected s); assumption ].
Qed.
Print Assumptions c18_invalid_no_effect.

Theorem c18_valid_reaches_cluster :
  (forall r, validate_create2 r = true -> handler_create2 r = Call OpCreate) /\
  (forall s r, validate_insert2 s r = true -> handler_insert2 s r = Call (OpInsert (Z.of_nat (List.length (ps_points r))))) /\
  (forall s r, validate_update2 s r = true -> handler_update2 s r = Call (OpUpdate (Z.of_nat (List.length (ps_points r))))) /\
  (forall s r, validate_search s r = true -> handler_search2 s r = Call OpSearch).
Proof. exact valid_reaches_cluster. Qed.
Print Assumptions c18_valid_reaches_cluster.

(* v1 handlers fetch IndexSchema["vector"].VectorVamana through a helper and test it for nil: on no
   collection does a v1 handler panic.  The pinned handlers dereferenced it directly: on a collection
   created through v2 they panicked (witness kept for the unguarded handlers, _v0) *)
Theorem c18_v1_no_panic : forall s,
  handler_get1 s <> Panic /\ handler_list1 [s] <> Panic /\ (forall r, handler_insert1 s r <> Panic) /\
  (forall r, handler_update1 s r <> Panic) /\ (forall r, handler_search1 s r <> Panic).
Proof. exact v1_no_panic. Qed.
Print Assumptions c18_v1_no_panic.

Theorem c18_v1_nil_deref_refuted_v0 :
  validate_ischema flat_only_schema = true /\
  handler_get1_gen true flat_only_schema = Panic /\
  handler_list1_gen true [flat_only_schema] = Panic /\
  validate_search1 (mkSr1 2 10) = true /\ handler_search1_gen true flat_only_schema (mkSr1 2 10) = Panic /\
  validate_insert1 (mkPts1 [mkPt1 IdAbsent 2 20] 1000) = true /\
  handler_points1_gen true hdl_v1_insert_validates_first (validate_insert1 (mkPts1 [mkPt1 IdAbsent 2 20] 1000))
                      flat_only_schema (mkPts1 [mkPt1 IdAbsent 2 20] 1000) (OpInsert 1) = Panic.
Proof. vm_compute. repeat split; reflexivity. Qed.
Print Assumptions c18_v1_nil_deref_refuted_v0.

(* The hypotheses are satisfiable by non-trivial data: a schema with vamana, flat, text, string
   and integer indexes and a nested query that passes validation. *)

Definition ex_schema : ischema :=
  [ ("vec"%string,  mkIV "vectorVamana" None (Some (mkVP 4 "euclidean" 75 64 f32_1_2 None)) None false false);
    ("flat"%string, mkIV "vectorFlat" (Some (mkVP 3 "cosine" 0 0 0%N
                       (Some (mkQz "product" None (Some (mkPQ 16 3 1000)))))) None None false false);
    ("desc"%string, mkIV "text" None None (Some "standard"%string) false false);
    ("cat"%string,  mkIV "string" None None None true false);
    ("size"%string, mkIV "integer" None None None false false) ].

(* text leaf whose filter is an _and of an integer leaf and a flat vector leaf whose own filter
   is a vamana leaf: the evaluator reaches two distance computations, both behind filters *)
Definition ex_query : query :=
  Qry "desc" None None
      (Some (mkR 5 "containsAny" 0 10
         (Some (Qry "_and" None None None None None None None
            [ Qry "size" None None None None (Some (mkS 0 "inRange" true false)) None None [] [];
              Qry "flat" (Some (mkR 3 "near" 0 5
                   (Some (Qry "vec" None (Some (mkR 4 "near" 75 10 None)) None None None None None [] []))))
                  None None None None None None [] [] ] []))))
      None None None None [] [].
Definition ex_request : search2 := mkSr ex_query 2 true 0 10.

Example ex_schema_valid : validate_ischema ex_schema = true. Proof. vm_compute. reflexivity. Qed.
Example ex_request_valid : validate_search ex_schema ex_request = true. Proof. vm_compute. reflexivity. Qed.
Example ex_reach : eval_reach ex_schema ex_query = [(4, 4); (3, 3)]. Proof. vm_compute. reflexivity. Qed.
Example ex_request_documented : doc_search2 ex_request = true. Proof. vm_compute. reflexivity. Qed.

(* a 5-element vector for the 4-dimensional vamana index inside the filter of a text query: the
   request passes the schema-free validation and is refused against the schema *)
Definition ex_query_bad : query :=
  Qry "desc" None None
      (Some (mkR 5 "containsAny" 0 10
         (Some (Qry "vec" None (Some (mkR 5 "near" 75 10 None)) None None None None None [] []))))
      None None None None [] [].
Example ex_bad_rejected :
  validate_request (mkSr ex_query_bad 0 true 0 10) = true /\
  validate_search ex_schema (mkSr ex_query_bad 0 true 0 10) = false /\
  eval_reach ex_schema ex_query_bad = [(4, 5)] /\
  handler_search2 ex_schema (mkSr ex_query_bad 0 true 0 10) = Reject.
Proof. vm_compute. repeat split; reflexivity. Qed.

Definition ex_point : point :=
  mkPt IdValid [("vec"%string, PArr 4 true false); ("flat"%string, PArr 3 true false);
                ("desc"%string, PStr); ("size"%string, PNum64)] 120 [].
Example ex_point_ok : point_ok ex_schema 1000 true ex_point = true /\ write_reach ex_schema ex_point = [(4, 4); (3, 3)].
Proof. vm_compute. split; reflexivity. Qed.
Example ex_point_bad :
  point_ok ex_schema 1000 true (mkPt IdValid [("vec"%string, PArr 5 true false)] 60 []) = false /\
  handler_insert2 ex_schema (mkPts [ex_point; mkPt IdValid [("vec"%string, PArr 5 true false)] 60 []] 1000) = Reject.
Proof. vm_compute. split; reflexivity. Qed.

(* a point that carries a well-formed literal root key "nested.v" next to a nested map whose "v" has the
   wrong length: the nested walk (= what the dispatcher reaches) counts, the point is refused *)
Definition ex_dotted_schema : ischema :=
  [("nested.v"%string, mkIV "vectorFlat" (Some (mkVP 2 "euclidean" 0 0 0%N None)) None None false false)].
Example ex_literal_key_ignored :
  point_ok ex_dotted_schema 1000 true (mkPt IdAbsent [("nested.v"%string, PArr 3 true false)] 60 [("nested.v"%string, PArr 2 true false)]) = false /\
  point_ok ex_dotted_schema 1000 true (mkPt IdAbsent [("nested.v"%string, PArr 2 true false)] 60 [("nested.v"%string, PArr 3 true false)]) = true /\
  write_reach ex_dotted_schema (mkPt IdAbsent [("nested.v"%string, PArr 2 true false)] 60 [("nested.v"%string, PArr 3 true false)]) = [(2, 2)].
Proof. vm_compute. repeat split; reflexivity. Qed.

Example ex_create_documented :
  validate_create2 (mkC2 5 [97; 98; 99; 49; 50]%N true ex_schema) = true /\
  nogap_create2 (mkC2 5 [97; 98; 99; 49; 50]%N true ex_schema) = true /\
  doc_create2 (mkC2 5 [97; 98; 99; 49; 50]%N true ex_schema) = 0%N.
Proof. vm_compute. repeat split; reflexivity. Qed.

Example ex_v1 :
  validate_create1 (mkC1 4 [118; 111; 110; 101]%N 3 "cosine") = true /\
  handler_search1 (v1_schema (mkC1 4 [118; 111; 110; 101]%N 3 "cosine")) (mkSr1 3 0) = Call OpSearch /\
  handler_search1 (v1_schema (mkC1 4 [118; 111; 110; 101]%N 3 "cosine")) (mkSr1 4 0) = Reject /\
  eval_reach (v1_schema (mkC1 4 [118; 111; 110; 101]%N 3 "cosine")) (v1_query (mkSr1 3 0)) = [(3, 3)].
Proof. vm_compute. repeat split; reflexivity. Qed.
