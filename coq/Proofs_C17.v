(* Proofs_C17.v -- lemmas behind Props_C17.v: the binary search of
   curateFailedPoints decides membership, the failed list is "requested minus
   processed", the fan-out of update / delete touches each stored id in exactly
   one shard and agrees with ONE collection-level store, the merge of per-shard
   answers is bounded, duplicate-free and globally ordered for every correct
   sort, bounds of the per-shard limit, which results an offset skips. *)
From Coq Require Import List NArith ZArith Bool Lia Arith Sorted Permutation.
From Coq Require Import ZifyBool ZifyN ZifyNat.
From Semadb Require Import ListFacts Bytes U64 Value Obs KeyLayout Model_C19 Model_C01 Model_C02 IdSets Model_C04 Model_C06 Model_C06M
  Model_C17.
From Semadb Require Proofs_C01 Proofs_C06.
Import ListNotations.
Open Scope N_scope.

Lemma NoDup_firstn {A} n (l : list A) : NoDup l -> NoDup (firstn n l).
Proof.
  intros H. rewrite <- (firstn_skipn n l) in H. apply NoDup_app_iff in H. tauto.
Qed.

Lemma Forall2_map_same {A B C} (R : B -> C -> Prop) (f : A -> B) (g : A -> C) (l : list A) :
  (forall x, In x l -> R (f x) (g x)) -> Forall2 R (map f l) (map g l).
Proof.
  induction l as [|x l IH]; cbn; intros H; constructor.
  - apply H. now left.
  - apply IH. intros y Hy. apply H. now right.
Qed.

Lemma NoDup_concat_incl {A} (ls ls' : list (list A)) :
  Forall2 (fun l l' => NoDup l' /\ incl l' l) ls ls' ->
  NoDup (concat ls) -> NoDup (concat ls').
Proof.
  induction 1 as [|l l' ls ls' [Hn Hi] HF IH]; cbn; [auto|].
  intros H. apply NoDup_app_iff in H. destruct H as [H1 [H2 H3]].
  apply NoDup_app_iff. repeat split; auto.
  intros x Hx Hx'. apply (H3 x (Hi x Hx)).
  clear - HF Hx'. induction HF as [|m m' ms ms' [_ Hi] _ IH]; cbn in *; [exact Hx'|].
  apply in_app_or in Hx'. apply in_or_app. destruct Hx' as [Hx'|Hx']; [left; now apply Hi|right; now apply IH].
Qed.

Lemma NoDup_concat_each {A} (ls : list (list A)) l : NoDup (concat ls) -> In l ls -> NoDup l.
Proof.
  induction ls as [|m ls IH]; cbn; [tauto|]. intros H Hl. apply NoDup_app_iff in H.
  destruct Hl as [->|Hl]; [|apply IH]; tauto.
Qed.

Lemma NoDup_concat_index {A} (ls : list (list A)) : NoDup (concat ls) ->
  forall k1 k2 a b x, nth_error ls k1 = Some a -> nth_error ls k2 = Some b -> In x a -> In x b -> k1 = k2.
Proof.
  induction ls as [|m ls IH]; intros H k1 k2 a b x H1 H2 Ha Hb; [destruct k1; discriminate|].
  cbn in H. apply NoDup_app_iff in H. destruct H as [Hm [Hr Hd]].
  assert (Hcross : forall y l k, In y m -> nth_error ls k = Some l -> ~ In y l).
  { intros y l k Hy Hk Hl. apply (Hd y Hy), in_concat. exists l. split; [now apply nth_error_In in Hk|exact Hl]. }
  destruct k1 as [|k1], k2 as [|k2]; cbn in H1, H2.
  - reflexivity.
  - inversion H1; subst. now destruct (Hcross x b k2 Ha H2).
  - inversion H2; subst. now destruct (Hcross x a k1 Hb H1).
  - f_equal. exact (IH Hr k1 k2 a b x H1 H2 Ha Hb).
Qed.

Definition ble (a b : bytes) : Prop := cle lex_compare a b.

Lemma ble_antisym a b : ble a b -> ble b a -> a = b.
Proof.
  unfold ble, cle. intros H1 H2. rewrite (lex_compare_antisym a b) in H2.
  destruct (lex_compare a b) eqn:E; cbn in *; try congruence.
  now apply lex_compare_eq.
Qed.

Lemma lt_ble_trans a b c : ble a b -> lex_compare b c = Lt -> lex_compare a c = Lt.
Proof.
  unfold ble, cle. intros H1 H2.
  destruct (lex_compare a b) eqn:E; [| |congruence].
  - apply lex_compare_eq in E. now subst.
  - exact (lex_compare_trans_lt _ _ _ E H2).
Qed.

Lemma strongly_sorted_nth {A} (R : A -> A -> Prop) (l : list A) (d : A) :
  (forall x, R x x) -> StronglySorted R l ->
  forall a b, (a <= b)%nat -> (b < length l)%nat -> R (nth a l d) (nth b l d).
Proof.
  intros Rr H. induction H as [|x l Hs IH Hf]; intros a b Hab Hb; cbn in Hb; [lia|].
  destruct a as [|a], b as [|b]; cbn; try lia.
  - apply Rr.
  - rewrite Forall_forall in Hf. apply Hf. apply nth_In. lia.
  - apply IH; lia.
Qed.

Section BinarySearch.
  Variable l : list uuid.
  Variable t : uuid.
  Hypothesis Hs : Sorted ble l.

  Let below (i : nat) : Prop := forall k, (k < i)%nat -> lex_compare (nth k l []) t = Lt.
  Let above (j : nat) : Prop := forall k, (j <= k)%nat -> (k < length l)%nat -> lex_compare (nth k l []) t <> Lt.

  Lemma nth_mono a b : (a <= b)%nat -> (b < length l)%nat -> ble (nth a l []) (nth b l []).
  Proof.
    apply strongly_sorted_nth; [|now apply (Proofs_C06.sorted_strong lex_compare Proofs_C06.lex_compare_preorder)].
    intros x. unfold ble, cle. rewrite lex_compare_refl. discriminate.
  Qed.

  Lemma bs_loop_spec fuel : forall i j,
    (j - i <= fuel)%nat -> (i <= j)%nat -> (j <= length l)%nat -> below i -> above j ->
    (i <= bs_loop fuel l t i j)%nat /\ (bs_loop fuel l t i j <= j)%nat /\
    below (bs_loop fuel l t i j) /\ above (bs_loop fuel l t i j).
  Proof.
    induction fuel as [|f IH]; intros i j Hf Hij Hj Hb Ha; cbn [bs_loop].
    - assert (i = j) by lia. subst j. repeat split; auto.
    - destruct (i <? j)%nat eqn:Elt; [|apply Nat.ltb_ge in Elt; assert (i = j) by lia; subst j; repeat split; auto].
      apply Nat.ltb_lt in Elt. set (h := ((i + j) / 2)%nat).
      assert (H1 : (i <= h)%nat) by (apply Nat.div_le_lower_bound; lia).
      assert (H2 : (h < j)%nat) by (apply Nat.div_lt_upper_bound; lia).
      clearbody h.
      assert (Hge : lex_compare (nth h l []) t <> Lt -> above h).
      { intros Hc k Hk1 Hk2 Hlt. apply Hc, (lt_ble_trans _ (nth k l [])); [apply nth_mono; lia|exact Hlt]. }
      destruct (lex_compare (nth h l []) t) eqn:Ec.
      1, 3: destruct (IH i h ltac:(lia) ltac:(lia) ltac:(lia) Hb (Hge ltac:(discriminate))) as [R1 [R2 [R3 R4]]];
        repeat split; auto; lia.
      assert (Hb' : below (S h)).
      { intros k Hk. apply (lt_ble_trans _ (nth h l [])); [|exact Ec]. apply nth_mono; lia. }
      destruct (IH (S h) j ltac:(lia) ltac:(lia) ltac:(lia) Hb' Ha) as [R1 [R2 [R3 R4]]]. repeat split; auto; lia.
  Qed.

  Lemma bsearch_position :
    let i := fst (bsearch l t) in
    (i <= length l)%nat /\
    (forall k, (k < i)%nat -> lex_compare (nth k l []) t = Lt) /\
    (forall k, (i <= k)%nat -> (k < length l)%nat -> lex_compare (nth k l []) t <> Lt).
  Proof.
    unfold bsearch. cbn [fst snd].
    destruct (bs_loop_spec (length l) 0 (length l)) as [R1 [R2 [R3 R4]]]; try lia.
    - intros k Hk. lia.
    - intros k Hk1 Hk2. lia.
    - repeat split; auto.
  Qed.

  Lemma bsearch_found : snd (bsearch l t) = true <-> In t l.
  Proof.
    destruct bsearch_position as [P1 [P2 P3]].
    unfold bsearch in *. cbn [fst snd] in *. set (i := bs_loop (length l) l t 0 (length l)) in *.
    rewrite andb_true_iff, Nat.ltb_lt, bytes_eqb_eq. split.
    - intros [Hi E]. rewrite <- E. now apply nth_In.
    - intros Hin. destruct (@In_nth uuid l t [] Hin) as [k [Hk Ek]].
      assert (Hik : (i <= k)%nat).
      { destruct (le_lt_dec i k) as [|Hlt]; [assumption|].
        specialize (P2 k Hlt). rewrite Ek, lex_compare_refl in P2. discriminate. }
      split; [lia|].
      apply ble_antisym.
      + rewrite <- Ek. apply nth_mono; lia.
      + unfold ble, cle. rewrite (lex_compare_antisym (nth i l []) t).
        specialize (P3 i ltac:(lia) ltac:(lia)).
        destruct (lex_compare (nth i l []) t); cbn; congruence.
  Qed.
End BinarySearch.

Lemma curate_sorted_spec all success sorted is_complete :
  Permutation success sorted -> Sorted ble sorted ->
  curate_sorted all sorted is_complete = failed_spec all success is_complete.
Proof.
  intros Hp Hs. unfold curate_sorted, failed_spec. f_equal. apply filter_ext. intros id. f_equal.
  apply eq_true_iff_eq. rewrite (bsearch_found sorted id Hs), mem_bytes_In.
  split; apply Permutation_in; [symmetry|]; exact Hp.
Qed.

Lemma curate_failed_spec all success is_complete :
  curate_failed all success is_complete = failed_spec all success is_complete.
Proof.
  unfold curate_failed. apply curate_sorted_spec.
  - apply (Proofs_C06.sort_by_perm lex_compare).
  - apply (Proofs_C06.sort_by_sorted lex_compare Proofs_C06.lex_compare_preorder).
Qed.

Lemma failed_spec_In all success is_complete id m :
  In (id, m) (failed_spec all success is_complete) <->
  In id all /\ ~ In id success /\ m = failed_msg is_complete.
Proof.
  unfold failed_spec. rewrite in_map_iff. split.
  - intros [x [E Hx]]. inversion E; subst. apply filter_In in Hx. destruct Hx as [Hx Hm].
    apply negb_true_iff, mem_bytes_false in Hm. auto.
  - intros [H1 [H2 ->]]. exists id. split; [reflexivity|]. apply filter_In. split; [exact H1|].
    apply negb_true_iff, mem_bytes_false. exact H2.
Qed.

Lemma failed_not_found all success (m : uuid -> bool) :
  (forall id, In id all -> (In id success <-> m id = true)) ->
  curate_failed all success true = map (fun id => (id, MSG_NOT_FOUND)) (filter (fun id => negb (m id)) all).
Proof.
  intros H. rewrite curate_failed_spec. unfold failed_spec. cbn [failed_msg]. f_equal.
  apply filter_ext_in. intros id Hid. f_equal. apply eq_true_iff_eq.
  rewrite mem_bytes_In. now apply H.
Qed.

Lemma sget_app id a b :
  st_get id (a ++ b) = match st_get id a with Some d => Some d | None => st_get id b end.
Proof. exact (aget_app bytes_eqb id a b). Qed.

Lemma smem_In id s : st_mem id s = true <-> In id (store_ids s).
Proof. rewrite Proofs_C01.st_mem_get. apply Proofs_C01.st_get_keys. Qed.

Lemma known_In ids s id : In id (known_of ids s) <-> In id ids /\ In id (store_ids s).
Proof. unfold known_of. now rewrite filter_In, Proofs_C01.dedup_In, smem_In. Qed.

Lemma known_NoDup ids s : NoDup (known_of ids s).
Proof. apply NoDup_filter, Proofs_C01.dedup_NoDup. Qed.

Lemma delete_spec_out ids s : snd (delete_spec ids s) = SOk (known_of ids s).
Proof. reflexivity. Qed.

Lemma delete_spec_get ids s id :
  st_get id (fst (delete_spec ids s)) = if mem_bytes id ids then None else st_get id s.
Proof.
  destruct (Proofs_C01.spec_delete_reports ids s _ _ eq_refl) as (_ & _ & Hin & Hout).
  destruct (mem_bytes id ids) eqn:E; [apply Hin, mem_bytes_In, E|apply Hout, mem_bytes_false, E].
Qed.

Lemma delete_untouched ids s : (forall id, In id ids -> ~ In id (store_ids s)) -> fst (delete_spec ids s) = s.
Proof.
  intros H. unfold delete_spec. cbn [fst]. fold (known_of ids s).
  destruct (known_of ids s) as [|x r] eqn:E; [reflexivity|].
  destruct (proj1 (known_In ids s x)) as [H1 H2]; [rewrite E; now left|]. now destruct (H x H1).
Qed.

(* what the successive increments of a batch do to the document stored under [id] *)
Fixpoint upd_doc (ps : list (uuid * doc)) (id : uuid) (o : option doc) : option doc :=
  match ps with
  | [] => o
  | (i, inc) :: r =>
      upd_doc r id (match o with
                    | Some d => if bytes_eqb id i then Some (merge_doc delete_value d inc) else Some d
                    | None => None
                    end)
  end.

Lemma upd_doc_none ps id o : upd_doc ps id o = None <-> o = None.
Proof.
  revert o. induction ps as [|[i inc] r IH]; intros o; cbn; [tauto|].
  rewrite IH. destruct o; [|tauto]. destruct (bytes_eqb id i); split; discriminate.
Qed.

Lemma update_go_cons sc mx id inc r s :
  update_go sc mx ((id, inc) :: r) s =
  match st_get id s with
  | None => update_go sc mx r s
  | Some old =>
      let merged := merge_doc delete_value old inc in
      let e := (if mx <? doc_size merged then [ERR_SIZE] else []) ++
               (if well_typed sc merged then [] else [ERR_TYPE]) in
      let '(s', ids, es) := update_go sc mx r (st_set id merged s) in
      (s', id :: ids, e ++ es)
  end.
Proof. reflexivity. Qed.

Lemma upd_store_get sc mx ps : forall s id,
  st_get id (upd_store sc mx ps s) = upd_doc ps id (st_get id s).
Proof.
  unfold upd_store. induction ps as [|[i inc] r IH]; intros s id; [reflexivity|].
  rewrite update_go_cons. cbn [upd_doc]. destruct (st_get i s) as [old|] eqn:G.
  - cbv zeta. specialize (IH (st_set i (merge_doc delete_value old inc) s) id).
    destruct (update_go sc mx r (st_set i (merge_doc delete_value old inc) s)) as [[s' ids] es].
    cbn [fst] in *. rewrite IH, Proofs_C01.st_get_set. destruct (bytes_eqb id i) eqn:E.
    + apply bytes_eqb_eq in E. subst i. now rewrite G.
    + destruct (st_get id s); reflexivity.
  - rewrite IH. destruct (st_get id s) eqn:G2; [|reflexivity].
    destruct (bytes_eqb id i) eqn:E; [|reflexivity]. apply bytes_eqb_eq in E. subst i. congruence.
Qed.

Lemma upd_ids_spec sc mx ps s : upd_ids sc mx ps s = filter (fun id => st_mem id s) (map fst ps).
Proof.
  unfold upd_ids. destruct (update_go sc mx ps s) as [[s' ids] es] eqn:E.
  exact (Proofs_C01.update_go_ids _ _ _ _ _ _ _ E).
Qed.

Lemma update_spec_ok sc mx ps s s' ids :
  update_spec sc mx ps s = (s', SOk ids) -> s' = upd_store sc mx ps s /\ ids = upd_ids sc mx ps s.
Proof.
  unfold update_spec, upd_store, upd_ids. destruct (update_go sc mx ps s) as [[s1 ids1] es].
  destruct es; intros H; inversion H; subst; auto.
Qed.

Lemma update_spec_err sc mx ps s s' ks : update_spec sc mx ps s = (s', SErr ks) -> s' = s.
Proof.
  unfold update_spec. destruct (update_go sc mx ps s) as [[s1 ids1] es].
  destruct es; intros H; inversion H; subst; auto.
Qed.

Lemma update_untouched sc mx ps s :
  (forall id, In id (map fst ps) -> ~ In id (store_ids s)) -> upd_store sc mx ps s = s.
Proof.
  unfold upd_store. revert s. induction ps as [|[i inc] r IH]; intros s H; [reflexivity|].
  rewrite update_go_cons. destruct (st_get i s) eqn:G.
  - exfalso. apply (H i); [now left|]. apply Proofs_C01.st_get_keys. congruence.
  - apply IH. intros id Hid. apply H. now right.
Qed.

Lemma upd_store_ids sc mx ps s x : In x (store_ids (upd_store sc mx ps s)) <-> In x (store_ids s).
Proof. now rewrite <- !Proofs_C01.st_get_keys, upd_store_get, upd_doc_none. Qed.

Lemma delete_spec_ids ids s x :
  In x (store_ids (fst (delete_spec ids s))) <-> In x (store_ids s) /\ ~ In x ids.
Proof.
  rewrite <- !Proofs_C01.st_get_keys, delete_spec_get, <- mem_bytes_false.
  destruct (mem_bytes x ids); intuition congruence.
Qed.

Lemma upd_store_NoDup sc mx ps s : NoDup (store_ids s) -> NoDup (store_ids (upd_store sc mx ps s)).
Proof.
  intros Hn. unfold upd_store. destruct (update_go sc mx ps s) as [[s' ids] es] eqn:E.
  exact (Proofs_C01.update_go_nodup sc mx ps s s' ids es Hn E).
Qed.

Lemma all_ids_cons sh c : all_ids (sh :: c) = store_ids (sh_store sh) ++ all_ids c.
Proof. reflexivity. Qed.

Lemma flat_cons sh c : flat (sh :: c) = sh_store sh ++ flat c.
Proof. reflexivity. Qed.

Lemma flat_ids c : store_ids (flat c) = all_ids c.
Proof.
  induction c as [|sh c IH]; [reflexivity|]. rewrite flat_cons, all_ids_cons, <- IH.
  unfold store_ids. apply map_app.
Qed.

Lemma all_ids_In id c : In id (all_ids c) <-> exists sh, In sh c /\ In id (store_ids (sh_store sh)).
Proof. unfold all_ids. now rewrite <- flat_map_concat_map, in_flat_map. Qed.

Lemma successes_In (f : shardst -> shard_resp) c id :
  In id (successes (map f c)) <-> exists sh, In sh c /\ In id (resp_ids (f sh)).
Proof. unfold successes. now rewrite map_map, <- flat_map_concat_map, in_flat_map. Qed.

Lemma all_up_In c : all_up c = true <-> forall sh, In sh c -> sh_up sh = true.
Proof. unfold all_up. now rewrite forallb_forall. Qed.

Lemma complete_all_some rs : complete rs = true <-> forall r, In r rs -> r <> None.
Proof.
  unfold complete. rewrite forallb_forall. split; intros H r Hr; specialize (H r Hr); destruct r; congruence.
Qed.

(* the shape the fan-outs of delete and update share: [f] is what a shard answers to a request about
   the ids [req], [g] what the shard becomes *)
Lemma fan_found_once (f : shardst -> shard_resp) (g : shardst -> shardst) (req : list uuid) c :
  unique_ids c ->
  (forall sh, NoDup (resp_ids (f sh))) ->
  (forall sh x, In x (resp_ids (f sh)) -> In x req /\ In x (store_ids (sh_store sh))) ->
  (forall sh, (forall id, In id req -> ~ In id (store_ids (sh_store sh))) -> g sh = sh) ->
  (forall k sh, nth_error c k = Some sh ->
     nth_error (map f c) k = Some (f sh) /\ nth_error (map g c) k = Some (g sh)) /\
  (forall k sh sh', nth_error c k = Some sh -> nth_error (map g c) k = Some sh' ->
     (forall id, In id req -> ~ In id (store_ids (sh_store sh))) -> sh' = sh) /\
  NoDup (successes (map f c)) /\
  (forall k1 k2 r1 r2 id, nth_error (map f c) k1 = Some r1 -> nth_error (map f c) k2 = Some r2 ->
     In id (resp_ids r1) -> In id (resp_ids r2) -> k1 = k2) /\
  (forall id, In id (successes (map f c)) -> In id req /\ In id (all_ids c)).
Proof.
  intros Hu Hn Hsub Hg. assert (Hnd : NoDup (successes (map f c))).
  { unfold successes. rewrite map_map.
    apply (NoDup_concat_incl (map (fun sh => store_ids (sh_store sh)) c)); [|exact Hu].
    apply Forall2_map_same. intros sh _. split; [apply Hn|]. intros x Hx. now apply Hsub in Hx. }
  split; [intros k sh Hk; split; exact (map_nth_error _ _ _ Hk)|].
  split; [intros k sh sh' Hk Hk'; rewrite (map_nth_error _ _ _ Hk) in Hk'; injection Hk' as <-; apply Hg|].
  split; [exact Hnd|]. split.
  - intros k1 k2 r1 r2 id H1 H2. apply (NoDup_concat_index _ Hnd); now rewrite nth_error_map, ?H1, ?H2.
  - intros id Hid. apply successes_In in Hid. destruct Hid as [sh [Hsh Hx]]. apply Hsub in Hx.
    split; [tauto|]. apply all_ids_In. exists sh. tauto.
Qed.

(* every shard answers exactly the requested ids it holds: the collection answers as ONE store would *)
Lemma fan_reference (f : shardst -> shard_resp) (req : list uuid) c :
  (forall sh, In sh c -> exists l, f sh = Some l /\ forall x, In x l <-> In x req /\ In x (store_ids (sh_store sh))) ->
  (forall id, In id (successes (map f c)) <-> In id req /\ In id (all_ids c)) /\
  complete (map f c) = true /\
  curate_failed req (successes (map f c)) (complete (map f c)) =
    map (fun id => (id, MSG_NOT_FOUND)) (filter (fun id => negb (st_mem id (flat c))) req).
Proof.
  intros H. assert (Hs : forall id, In id (successes (map f c)) <-> In id req /\ In id (all_ids c)).
  { intros id. rewrite successes_In, all_ids_In.
    split; [intros [sh [Hsh Hx]]|intros [Hi [sh [Hsh Hx]]]]; destruct (H sh Hsh) as [l [E Hl]].
    - rewrite E in Hx. apply Hl in Hx. split; [tauto|]. exists sh. tauto.
    - exists sh. split; [exact Hsh|]. rewrite E. apply Hl. tauto. }
  assert (Hc : complete (map f c) = true).
  { apply complete_all_some. intros r Hr. apply in_map_iff in Hr. destruct Hr as [sh [<- Hsh]].
    destruct (H sh Hsh) as [l [E _]]. congruence. }
  split; [exact Hs|]. split; [exact Hc|]. rewrite Hc. apply failed_not_found.
  intros id Hid. rewrite Hs, smem_In, flat_ids. tauto.
Qed.

(* [phi]: what the operation does to the lookup of [id] in one store.  It may erase a document only if it
   erases every one, or a copy of [id] in a later shard would show through *)
Lemma flat_map_get (g : shardst -> shardst) (phi : option doc -> option doc) id c :
  phi None = None -> (forall d o, phi (Some d) = None -> phi o = None) ->
  (forall sh, In sh c -> st_get id (sh_store (g sh)) = phi (st_get id (sh_store sh))) ->
  st_get id (flat (map g c)) = phi (st_get id (flat c)).
Proof.
  intros H0 H1 Hg. induction c as [|sh c IH]; [symmetry; exact H0|]. cbn [map].
  rewrite !flat_cons, !sget_app, (Hg sh), IH by (try (intros sh' Hsh'; apply Hg); now (left + right)).
  destruct (st_get id (sh_store sh)) as [d|]; [|now rewrite H0].
  destruct (phi (Some d)) eqn:E; [reflexivity|]. exact (H1 d _ E).
Qed.

Lemma unique_ids_map (g : shardst -> shardst) c :
  (forall sh, NoDup (store_ids (sh_store sh)) ->
     NoDup (store_ids (sh_store (g sh))) /\ incl (store_ids (sh_store (g sh))) (store_ids (sh_store sh))) ->
  unique_ids c -> unique_ids (map g c).
Proof.
  intros Hg Hu. unfold unique_ids, all_ids in *. rewrite map_map.
  apply (NoDup_concat_incl (map (fun sh => store_ids (sh_store sh)) c)); [|exact Hu].
  apply Forall2_map_same. intros sh Hsh. apply Hg, (NoDup_concat_each _ _ Hu), in_map_iff. eauto.
Qed.

Definition del_resp_of (ids : list uuid) (sh : shardst) : shard_resp :=
  if sh_up sh then Some (known_of ids (sh_store sh)) else None.
Definition del_state_of (ids : list uuid) (sh : shardst) : shardst :=
  if sh_up sh then mkShard (fst (delete_spec ids (sh_store sh))) true else sh.

Lemma fan_delete_eq ids c : fan_delete ids c = (map (del_state_of ids) c, map (del_resp_of ids) c).
Proof.
  unfold fan_delete, del_state_of, del_resp_of, shard_delete. f_equal; apply map_ext; intros sh; now destruct (sh_up sh).
Qed.

Lemma del_resp_In ids sh x :
  In x (resp_ids (del_resp_of ids sh)) <-> In x ids /\ In x (store_ids (sh_store sh)) /\ sh_up sh = true.
Proof. unfold del_resp_of. destruct (sh_up sh); cbn [resp_ids]; [rewrite known_In|cbn]; intuition congruence. Qed.

Lemma del_resp_NoDup ids sh : NoDup (resp_ids (del_resp_of ids sh)).
Proof. unfold del_resp_of. destruct (sh_up sh); [apply known_NoDup|constructor]. Qed.

Lemma del_state_untouched ids sh :
  (forall id, In id ids -> ~ In id (store_ids (sh_store sh))) -> del_state_of ids sh = sh.
Proof.
  intros H. unfold del_state_of. destruct sh as [s []]; [|reflexivity]. cbn. f_equal. exact (delete_untouched ids s H).
Qed.

Lemma del_successes_In ids c id :
  In id (successes (map (del_resp_of ids) c)) <->
  In id ids /\ exists sh, In sh c /\ sh_up sh = true /\ In id (store_ids (sh_store sh)).
Proof.
  rewrite successes_In. setoid_rewrite del_resp_In.
  split; [intros [sh [Hsh [Hi [Hs Eu]]]]|intros [Hi [sh [Hsh [Eu Hs]]]]]; eauto 6.
Qed.

Lemma flat_delete_get ids c id : all_up c = true ->
  st_get id (flat (map (del_state_of ids) c)) = st_get id (fst (delete_spec ids (flat c))).
Proof.
  intros Hup. rewrite delete_spec_get. apply (flat_map_get _ (fun o => if mem_bytes id ids then None else o)).
  - now destruct (mem_bytes id ids).
  - intros d o. now destruct (mem_bytes id ids).
  - intros sh Hsh. unfold del_state_of. rewrite (proj1 (all_up_In c) Hup sh Hsh). apply delete_spec_get.
Qed.

Lemma fan_delete_unique : forall ids c, unique_ids c -> unique_ids (fst (fan_delete ids c)).
Proof.
  intros ids c. rewrite fan_delete_eq. apply unique_ids_map. intros sh Hn. unfold del_state_of.
  destruct (sh_up sh); [|split; [exact Hn|apply incl_refl]].
  split; [now apply Proofs_C01.fold_remove_nodup|]. intros x Hx. now apply delete_spec_ids in Hx.
Qed.

Definition upd_resp_of (sc : schema) (mx : N) (ps : list (uuid * doc)) (sh : shardst) : shard_resp :=
  if sh_up sh then
    match snd (update_spec sc mx ps (sh_store sh)) with
    | SOk _ => Some (filter (fun id => st_mem id (sh_store sh)) (map fst ps))
    | SErr _ => None
    end
  else None.
Definition upd_state_of (sc : schema) (mx : N) (ps : list (uuid * doc)) (sh : shardst) : shardst :=
  if sh_up sh then
    match snd (update_spec sc mx ps (sh_store sh)) with
    | SOk _ => mkShard (upd_store sc mx ps (sh_store sh)) true
    | SErr _ => sh
    end
  else sh.

Lemma fan_update_eq sc mx ps c :
  fan_update sc mx ps c = (map (upd_state_of sc mx ps) c, map (upd_resp_of sc mx ps) c).
Proof.
  unfold fan_update. f_equal; apply map_ext; intros sh; unfold shard_update, upd_state_of, upd_resp_of.
  all: destruct (sh_up sh); [|reflexivity].
  all: destruct (update_spec sc mx ps (sh_store sh)) as [s' [ids|ks]] eqn:E; cbn [fst snd]; [|reflexivity].
  all: apply update_spec_ok in E; destruct E as [-> ->]; now rewrite ?upd_ids_spec.
Qed.

Lemma upd_resp_state sc mx ps sh :
  (upd_resp_of sc mx ps sh = None /\ upd_state_of sc mx ps sh = sh) \/
  (upd_resp_of sc mx ps sh = Some (filter (fun id => st_mem id (sh_store sh)) (map fst ps)) /\ sh_up sh = true /\
   upd_state_of sc mx ps sh = mkShard (upd_store sc mx ps (sh_store sh)) true).
Proof.
  unfold upd_resp_of, upd_state_of. destruct (sh_up sh); [|now left].
  destruct (snd (update_spec sc mx ps (sh_store sh))); [right|left]; auto.
Qed.

Lemma upd_resp_sub sc mx ps sh x : In x (resp_ids (upd_resp_of sc mx ps sh)) ->
  In x (map fst ps) /\ In x (store_ids (sh_store sh)).
Proof.
  destruct (upd_resp_state sc mx ps sh) as [[-> _]|[-> _]]; [intros []|]. cbn. now rewrite filter_In, smem_In.
Qed.

Lemma upd_resp_NoDup sc mx ps sh : NoDup (map fst ps) -> NoDup (resp_ids (upd_resp_of sc mx ps sh)).
Proof.
  intros H. destruct (upd_resp_state sc mx ps sh) as [[-> _]|[-> _]]; [constructor|now apply NoDup_filter].
Qed.

Lemma upd_state_untouched sc mx ps sh :
  (forall id, In id (map fst ps) -> ~ In id (store_ids (sh_store sh))) -> upd_state_of sc mx ps sh = sh.
Proof.
  intros H. destruct (upd_resp_state sc mx ps sh) as [[_ ->]|[_ [Eu ->]]]; [reflexivity|].
  rewrite (update_untouched sc mx ps _ H). destruct sh. cbn in Eu. now subst.
Qed.

Lemma upd_complete sc mx ps c : complete (map (upd_resp_of sc mx ps) c) = true ->
  forall sh, In sh c ->
    upd_resp_of sc mx ps sh = Some (filter (fun id => st_mem id (sh_store sh)) (map fst ps)) /\
    upd_state_of sc mx ps sh = mkShard (upd_store sc mx ps (sh_store sh)) true.
Proof.
  intros Hc sh Hsh. destruct (upd_resp_state sc mx ps sh) as [[E _]|[E1 [_ E2]]]; [|now split].
  destruct (proj1 (complete_all_some _) Hc _ (in_map _ _ _ Hsh) E).
Qed.

Lemma flat_update_get sc mx ps c id : complete (map (upd_resp_of sc mx ps) c) = true ->
  st_get id (flat (map (upd_state_of sc mx ps) c)) = st_get id (upd_store sc mx ps (flat c)).
Proof.
  intros Hc. rewrite upd_store_get. apply flat_map_get.
  - now apply upd_doc_none.
  - intros d o E. now apply upd_doc_none in E.
  - intros sh Hsh. rewrite (proj2 (upd_complete sc mx ps c Hc sh Hsh)). apply upd_store_get.
Qed.

Lemma fan_update_unique : forall sc mx ps c, unique_ids c -> unique_ids (fst (fan_update sc mx ps c)).
Proof.
  intros sc mx ps c. rewrite fan_update_eq. apply unique_ids_map. intros sh Hn.
  destruct (upd_resp_state sc mx ps sh) as [[_ ->]|[_ [_ ->]]]; [split; [exact Hn|apply incl_refl]|].
  split; [now apply upd_store_NoDup|]. intros x. apply upd_store_ids.
Qed.

(* a part with no shard left creates an empty available one *)
Lemma fan_insert_cons sc p parts c :
  fan_insert sc (p :: parts) c = shard_insert sc p (hd (mkShard [] true) c) :: fan_insert sc parts (tl c).
Proof. now destruct c. Qed.

Lemma all_ids_hd_tl c : all_ids c = store_ids (sh_store (hd (mkShard [] true) c)) ++ all_ids (tl c).
Proof. now destruct c. Qed.

Lemma flat_hd_tl c : flat c = sh_store (hd (mkShard [] true) c) ++ flat (tl c).
Proof. now destruct c. Qed.

Lemma fold_set_incl ps : forall s,
  incl (store_ids (fold_left (fun acc p => st_set (fst p) (snd p) acc) ps s)) (map fst ps ++ store_ids s).
Proof.
  induction ps as [|[i d] ps IH]; intros s x Hx; [exact Hx|]. apply IH, in_app_or in Hx. cbn.
  destruct Hx as [Hx|[<-|Hx]]; [right; apply in_or_app; now left|now left|].
  apply Proofs_C01.st_remove_keys in Hx. right. apply in_or_app. right. tauto.
Qed.

Lemma insert_spec_store sc ps s :
  fst (insert_spec sc ps s) = s \/
  fst (insert_spec sc ps s) = fold_left (fun acc p => st_set (fst p) (snd p) acc) ps s.
Proof. unfold insert_spec. destruct (has_dup (map fst ps)); [now left|]. destruct (_ ++ _); auto. Qed.

Lemma shard_insert_store sc p sh :
  sh_store (shard_insert sc p sh) = sh_store sh \/
  sh_store (shard_insert sc p sh) = fold_left (fun acc q => st_set (fst q) (snd q) acc) p (sh_store sh).
Proof.
  unfold shard_insert. destruct (sh_up sh); [|now left]. pose proof (insert_spec_store sc p (sh_store sh)) as H.
  destruct (insert_spec sc p (sh_store sh)) as [s' [k|e]]; [exact H|now left].
Qed.

Lemma shard_insert_NoDup sc p sh :
  NoDup (store_ids (sh_store sh)) -> NoDup (store_ids (sh_store (shard_insert sc p sh))).
Proof.
  intros Hn. destruct (shard_insert_store sc p sh) as [-> | ->]; [exact Hn|now apply Proofs_C01.fold_set_nodup].
Qed.

Lemma shard_insert_incl sc p sh :
  incl (store_ids (sh_store (shard_insert sc p sh))) (map fst p ++ store_ids (sh_store sh)).
Proof.
  destruct (shard_insert_store sc p sh) as [-> | ->]; [apply incl_appr, incl_refl|apply fold_set_incl].
Qed.

Lemma fan_insert_incl sc parts : forall c,
  incl (all_ids (fan_insert sc parts c)) (map fst (concat parts) ++ all_ids c).
Proof.
  induction parts as [|p parts IH]; intros c x Hx; [exact Hx|].
  rewrite fan_insert_cons, all_ids_cons in Hx. rewrite (all_ids_hd_tl c). cbn [concat]. rewrite map_app, !in_app_iff.
  apply in_app_or in Hx. destruct Hx as [Hx|Hx]; [apply shard_insert_incl in Hx|apply IH in Hx]; apply in_app_or in Hx; tauto.
Qed.

Lemma fan_insert_unique : forall sc parts c,
  unique_ids c ->
  NoDup (map fst (concat parts)) ->
  (forall id, In id (map fst (concat parts)) -> ~ In id (all_ids c)) ->
  unique_ids (fan_insert sc parts c).
Proof.
  intros sc parts. induction parts as [|p parts IH]; intros c Hu Hn Hf; [exact Hu|].
  unfold unique_ids in *. rewrite fan_insert_cons, all_ids_cons. rewrite (all_ids_hd_tl c) in Hu, Hf.
  set (sh := hd (mkShard [] true) c) in *. cbn [concat] in Hn, Hf. rewrite map_app in Hn, Hf.
  apply NoDup_app_iff in Hu, Hn. destruct Hu as [Hu1 [Hu2 Hu3]], Hn as [Hn1 [Hn2 Hn3]].
  apply NoDup_app_iff. split; [now apply shard_insert_NoDup|]. split.
  - apply IH; [exact Hu2|exact Hn2|]. intros x Hx Hx'. apply (Hf x); apply in_or_app; now right.
  - (* an id of the first shard and an id of a later one: old or new, they differ *)
    intros x Hx Hx'. apply shard_insert_incl, in_app_or in Hx. apply fan_insert_incl, in_app_or in Hx'.
    destruct Hx as [Hx|Hx], Hx' as [Hx'|Hx'].
    + exact (Hn3 x Hx Hx').
    + apply (Hf x); apply in_or_app; [now left|now right].
    + apply (Hf x); apply in_or_app; [now right|now left].
    + exact (Hu3 x Hx Hx').
Qed.

Lemma insert_spec_accepts sc ps s :
  NoDup (map fst ps) -> (forall id, In id (map fst ps) -> ~ In id (store_ids s)) ->
  forallb (fun p => well_typed sc (snd p)) ps = true ->
  insert_spec sc ps s = (fold_left (fun acc p => st_set (fst p) (snd p) acc) ps s, SOk []).
Proof.
  intros Hn Hf Ht. unfold insert_spec. rewrite (proj2 (Proofs_C01.has_dup_false _) Hn), Ht.
  assert (E : existsb (fun p => st_mem (fst p) s) ps = false).
  { destruct (existsb (fun p => st_mem (fst p) s) ps) eqn:E; [|reflexivity]. exfalso.
    apply existsb_exists in E. destruct E as [p [Hp Hm]]. apply smem_In in Hm.
    apply (Hf (fst p)); [now apply in_map|exact Hm]. }
  rewrite E. reflexivity.
Qed.

Lemma shard_insert_get sc p sh id :
  sh_up sh = true -> NoDup (map fst p) -> (forall x, In x (map fst p) -> ~ In x (store_ids (sh_store sh))) ->
  forallb (fun q => well_typed sc (snd q)) p = true ->
  st_get id (sh_store (shard_insert sc p sh)) =
  match st_get id p with Some d => Some d | None => st_get id (sh_store sh) end.
Proof.
  intros Hu Hn Hf Ht. unfold shard_insert. rewrite Hu, (insert_spec_accepts sc p _ Hn Hf Ht). cbn [sh_store].
  now apply Proofs_C01.fold_set_get.
Qed.

Lemma map_fst_concat (parts : list (list (uuid * doc))) :
  map fst (concat parts) = concat (map (map fst) parts).
Proof. apply concat_map. Qed.

Lemma fan_insert_get sc parts : forall c id,
  all_up c = true ->
  NoDup (map fst (concat parts)) ->
  (forall id, In id (map fst (concat parts)) -> ~ In id (all_ids c)) ->
  Forall (fun p => forallb (fun q => well_typed sc (snd q)) p = true) parts ->
  st_get id (flat (fan_insert sc parts c)) =
  match st_get id (concat parts) with Some d => Some d | None => st_get id (flat c) end.
Proof.
  induction parts as [|p parts IH]; intros c id Hup Hn Hf Ht; [reflexivity|].
  inversion Ht as [|? ? Htp Htr]; subst.
  rewrite fan_insert_cons, flat_cons, (flat_hd_tl c). rewrite (all_ids_hd_tl c) in Hf.
  assert (Hup' : sh_up (hd (mkShard [] true) c) = true /\ all_up (tl c) = true).
  { destruct c; [auto|]. apply andb_true_iff in Hup. exact Hup. }
  set (sh := hd (mkShard [] true) c) in *. cbn [concat] in *. rewrite map_app in Hn, Hf.
  apply NoDup_app_iff in Hn. destruct Hn as [Hnp [Hnr Hd]].
  rewrite !sget_app, shard_insert_get, IH; try tauto.
  - (* a lookup that succeeds in the first shard fails in the later parts *)
    destruct (st_get id p) eqn:G1; [reflexivity|].
    destruct (st_get id (sh_store sh)) eqn:G2; [|reflexivity].
    destruct (st_get id (concat parts)) eqn:G3; [|reflexivity].
    destruct (Hf id); apply in_or_app; [right|left]; apply Proofs_C01.st_get_keys; congruence.
  - intros x Hx Hx'. apply (Hf x); apply in_or_app; now right.
  - intros x Hx Hx'. apply (Hf x); apply in_or_app; now left.
Qed.

Lemma insert_concat_accepts sc (parts : list (list (uuid * doc))) s :
  NoDup (map fst (concat parts)) -> (forall id, In id (map fst (concat parts)) -> ~ In id (store_ids s)) ->
  Forall (fun p => forallb (fun q => well_typed sc (snd q)) p = true) parts ->
  insert_spec sc (concat parts) s =
    (fold_left (fun acc p => st_set (fst p) (snd p) acc) (concat parts) s, SOk []).
Proof.
  intros Hn Hf Ht. apply insert_spec_accepts; [exact Hn|exact Hf|].
  clear - Ht. induction Ht as [|p parts Hp _ IH]; [reflexivity|]. cbn [concat]. now rewrite forallb_app, Hp, IH.
Qed.

Lemma hyb_preorder : cmp_preorder hyb_cmp.
Proof.
  unfold hyb_cmp. constructor.
  - intros x. apply Z.compare_refl.
  - intros x y. apply Z.compare_antisym.
  - intros x y z. rewrite !Z.compare_gt_iff. lia.
Qed.

Lemma row_cmp_preorder keys : cmp_preorder (row_cmp keys).
Proof.
  destruct keys as [|k keys]; [exact hyb_preorder|].
  apply (Proofs_C06.cmp_preorder_pull row_doc (sort_cmp (k :: keys))). apply Proofs_C06.sort_cmp_preorder.
Qed.

Lemma concat_ids_NoDup (answers : list (list row)) :
  Forall (fun a => NoDup (map r_id a)) answers -> ForallOrdPairs ids_disjoint answers ->
  NoDup (map r_id (concat answers)).
Proof.
  intros Hn Hd. induction Hd as [|a rest Ha Hrest IH]; [constructor|].
  inversion Hn as [|? ? Hna Hnr]; subst. cbn. rewrite map_app. apply NoDup_app_iff. repeat split; auto.
  intros id Hid Hid'. rewrite concat_map in Hid'. apply in_concat in Hid'.
  destruct Hid' as [m [Hm Him]]. apply in_map_iff in Hm. destruct Hm as [b [<- Hb]].
  rewrite Forall_forall in Ha. exact (Ha b Hb id Hid Him).
Qed.

Lemma cut_perm {A B} (f : A -> B) (limit : N) (xs l : list A) : Permutation xs l ->
  (length (cut limit l) <= N.to_nat limit)%nat /\
  (forall r, In r (cut limit l) -> In r xs) /\
  (NoDup (map f xs) -> NoDup (map f (cut limit l))).
Proof.
  intros Hp. unfold cut. split; [apply firstn_le_length|]. split.
  - intros r Hr. rewrite Hp, <- (firstn_skipn (N.to_nat limit) l). apply in_or_app. now left.
  - intros H. rewrite <- firstn_map. apply NoDup_firstn.
    eapply Permutation_NoDup; [apply Permutation_map; exact Hp|exact H].
Qed.

Lemma cut_sorted_perm {A} (cmp : A -> A -> comparison) (limit : N) (xs l : list A) :
  cmp_preorder cmp -> is_sorted_perm cmp xs l ->
  Sorted (cle cmp) (cut limit l) /\
  exists rest, Permutation xs (cut limit l ++ rest) /\
               forall x y, In x (cut limit l) -> In y rest -> cle cmp x y.
Proof.
  intros Hc [Hp Hs]. apply (Proofs_C06.sorted_strong cmp Hc) in Hs. unfold cut.
  rewrite <- (firstn_skipn (N.to_nat limit) l) in Hs. apply StronglySorted_app_iff in Hs. destruct Hs as (Hs & _ & Hx).
  split; [now apply StronglySorted_Sorted|].
  exists (skipn (N.to_nat limit) l). rewrite firstn_skipn. split; [exact Hp|exact Hx].
Qed.

Lemma merge_search_merged : forall keys limit answers,
  merged keys limit answers (merge_search keys limit answers).
Proof.
  intros keys limit answers. unfold merged, merge_search.
  exists (if (1 <? length answers)%nat then sort_by (row_cmp keys) (concat answers) else concat answers).
  split; [|reflexivity]. destruct (1 <? length answers)%nat; [|reflexivity]. split.
  - apply Proofs_C06.sort_by_perm.
  - apply Proofs_C06.sort_by_sorted. apply row_cmp_preorder.
Qed.

Lemma merge_search_all keys limit (answers : list (list row)) :
  (length (concat answers) <= N.to_nat limit)%nat -> Permutation (concat answers) (merge_search keys limit answers).
Proof.
  intros Hlen. unfold merge_search, cut. pose proof (Proofs_C06.sort_by_perm (row_cmp keys) (concat answers)) as Hp.
  rewrite firstn_all2; [now destruct (1 <? length answers)%nat|].
  destruct (1 <? length answers)%nat; [now rewrite <- (Permutation_length Hp)|exact Hlen].
Qed.

Lemma pow2_pos (k : N) : 0 < 2 ^ k.
Proof. pose proof (N.pow_nonzero 2 k ltac:(discriminate)). lia. Qed.

Lemma r32_den_pos x : 0 < snd (r32 x).
Proof.
  unfold r32. destruct (fst x =? 0); [cbn; lia|].
  destruct (0 <=? f32_exp_of (fst x) (snd x))%Z; cbn [snd]; [lia|apply pow2_pos].
Qed.

Lemma round_even_ge num den : num / den <= round_even num den.
Proof.
  unfold round_even. destruct (2 * (num mod den) <? den); [lia|].
  destruct (den <? 2 * (num mod den)); [lia|]. destruct (N.even (num / den)); lia.
Qed.

(* when the grid exponent is not negative, n/d is at least 2^23 grid steps *)
Lemma exp_lower n d : 0 < n -> 0 < d -> (0 <= f32_exp_of n d)%Z ->
  d * 2 ^ (Z.to_N (f32_exp_of n d) + 23) <= n.
Proof.
  intros Hn Hd. unfold f32_exp_of.
  destruct (N.log2_spec n Hn) as [Ln1 Ln2]. destruct (N.log2_spec d Hd) as [Ld1 Ld2].
  set (a := N.log2 n) in *. set (b := N.log2 d) in *.
  destruct (ge_pow2 n d (Z.of_N a - Z.of_N b)) eqn:G; intros He.
  - unfold ge_pow2 in G. destruct (0 <=? Z.of_N a - Z.of_N b)%Z eqn:E0; [|lia].
    apply N.leb_le in G.
    replace (Z.to_N (Z.of_N a - Z.of_N b - 23) + 23) with (Z.to_N (Z.of_N a - Z.of_N b)) by lia.
    exact G.
  - assert (Hab : b + 24 <= a) by lia.
    replace (Z.to_N (Z.of_N a - Z.of_N b - 1 - 23) + 23) with (a - b - 1) by lia.
    assert (E : 2 ^ a = 2 ^ N.succ b * 2 ^ (a - b - 1)).
    { rewrite <- N.pow_add_r. f_equal. lia. }
    pose proof (pow2_pos (a - b - 1)) as Hp.
    assert (d * 2 ^ (a - b - 1) < 2 ^ N.succ b * 2 ^ (a - b - 1)) by (apply N.mul_lt_mono_pos_r; assumption).
    lia.
Qed.

(* rounding to float32 never crosses 10 downwards *)
Lemma r32_ge_10 n d : 0 < d -> 10 * d <= n -> 10 * snd (r32 (n, d)) <= fst (r32 (n, d)).
Proof.
  intros Hd H. assert (Hn : 0 < n) by lia. unfold r32. cbn [fst snd].
  destruct (n =? 0) eqn:E0; [lia|].
  destruct (0 <=? f32_exp_of n d)%Z eqn:Ee; cbn [fst snd].
  - apply Z.leb_le in Ee. pose proof (exp_lower n d Hn Hd Ee) as HL.
    set (E := Z.to_N (f32_exp_of n d)) in *.
    pose proof (pow2_pos E) as HE.
    rewrite N.pow_add_r, N.mul_assoc in HL.
    assert (Hq : 2 ^ 23 <= n / (d * 2 ^ E)).
    { apply N.div_le_lower_bound; [lia|exact HL]. }
    pose proof (round_even_ge n (d * 2 ^ E)) as Hr.
    change (2 ^ 23) with 8388608 in Hq.
    transitivity (round_even n (d * 2 ^ E) * 1); [lia|]. apply N.mul_le_mono_l. lia.
  - set (E := Z.to_N (- f32_exp_of n d)) in *. pose proof (pow2_pos E) as HE.
    pose proof (round_even_ge (n * 2 ^ E) d) as Hr.
    assert (Hq : 10 * 2 ^ E <= n * 2 ^ E / d).
    { apply N.div_le_lower_bound; [lia|]. rewrite N.mul_assoc. apply N.mul_le_mono_r. lia. }
    lia.
Qed.

Lemma round_even_qr q r d : r < d ->
  round_even (q * d + r) d = if 2 * r <? d then q else if d <? 2 * r then q + 1 else if N.even q then q else q + 1.
Proof.
  intros H. unfold round_even.
  now rewrite N.div_add_l, N.div_small, N.add_0_r, N.add_comm, N.mod_add, N.mod_small by lia.
Qed.

Lemma round_even_mul a b : 0 < b -> round_even (a * b) b = a.
Proof.
  intros H. rewrite <- (N.add_0_r (a * b)), round_even_qr by exact H. now replace (2 * 0 <? b) with true by lia.
Qed.

Lemma ltb_mul_l c x y : 0 < c -> (c * x <? c * y) = (x <? y).
Proof. intros H. apply eq_true_iff_eq. rewrite !N.ltb_lt. symmetry. now apply N.mul_lt_mono_pos_l. Qed.

Lemma leb_mul_l c x y : 0 < c -> (c * x <=? c * y) = (x <=? y).
Proof. intros H. apply eq_true_iff_eq. rewrite !N.leb_le. symmetry. now apply N.mul_le_mono_pos_l. Qed.

Lemma round_even_scale c a b : 0 < c -> 0 < b -> round_even (c * a) (c * b) = round_even a b.
Proof.
  intros Hc Hb. unfold round_even.
  rewrite N.div_mul_cancel_l, N.mul_mod_distr_l by lia.
  now rewrite (N.mul_comm 2 (c * _)), <- N.mul_assoc, (N.mul_comm _ 2), !ltb_mul_l by exact Hc.
Qed.

Lemma f32_exp_scale2 i n d : 0 < n -> 0 < d -> f32_exp_of (2 ^ i * n) (2 ^ i * d) = f32_exp_of n d.
Proof.
  intros Hn Hd. unfold f32_exp_of.
  rewrite (N.mul_comm _ n), (N.mul_comm _ d), !N.log2_mul_pow2, !(N.mul_comm _ (2 ^ i)) by lia.
  replace (Z.of_N (i + N.log2 n) - Z.of_N (i + N.log2 d))%Z with (Z.of_N (N.log2 n) - Z.of_N (N.log2 d))%Z by lia.
  set (k := (Z.of_N (N.log2 n) - Z.of_N (N.log2 d))%Z).
  replace (ge_pow2 (2 ^ i * n) (2 ^ i * d) k) with (ge_pow2 n d k); [reflexivity|].
  unfold ge_pow2. destruct (0 <=? k)%Z; now rewrite <- N.mul_assoc, leb_mul_l by apply pow2_pos.
Qed.

Lemma f32_exp_pow2 m j : 0 < m -> f32_exp_of m (2 ^ j) = (Z.of_N (N.log2 m) - Z.of_N j - 23)%Z.
Proof.
  intros Hm. unfold f32_exp_of. rewrite N.log2_pow2 by lia.
  destruct (N.log2_spec m Hm) as [L _]. set (a := N.log2 m) in *.
  replace (ge_pow2 m (2 ^ j) (Z.of_N a - Z.of_N j)) with true; [reflexivity|].
  symmetry. unfold ge_pow2. destruct (0 <=? Z.of_N a - Z.of_N j)%Z eqn:E; apply N.leb_le.
  - rewrite <- N.pow_add_r. replace (j + Z.to_N (Z.of_N a - Z.of_N j)) with a by lia. exact L.
  - replace j with (a + Z.to_N (- (Z.of_N a - Z.of_N j))) at 1 by lia. rewrite N.pow_add_r.
    now apply N.mul_le_mono_r.
Qed.

Lemma r32_scale2 i n d : 0 < d -> r32 (2 ^ i * n, 2 ^ i * d) = r32 (n, d).
Proof.
  intros Hd. pose proof (pow2_pos i) as Hi. destruct n as [|p]; [now rewrite N.mul_0_r|].
  unfold r32. cbn [fst snd]. rewrite f32_exp_scale2 by lia.
  replace (2 ^ i * Npos p =? 0) with false by (symmetry; apply N.eqb_neq, N.neq_mul_0; lia).
  cbn [N.eqb]. destruct (0 <=? f32_exp_of (Npos p) d)%Z.
  - now rewrite <- N.mul_assoc, round_even_scale by (try apply N.mul_pos_pos; try apply pow2_pos; lia).
  - now rewrite <- N.mul_assoc, round_even_scale by lia.
Qed.

(* round half to even of (m + lo) / 2^(k+1), where 0 <= lo < 1 and [st] tells whether 0 < lo *)
Fixpoint rne (k : nat) (m : N) (st : bool) : N :=
  match k with
  | O => let q := N.div2 m in if N.odd m && (st || N.odd q) then N.succ q else q
  | S k => rne k (N.div2 m) (st || N.odd m)
  end.

Lemma rne_spec k : forall m st w lo, lo < 2 ^ w -> st = negb (lo =? 0) ->
  rne k m st = round_even (m * 2 ^ w + lo) (2 ^ (N.of_nat (S k) + w)).
Proof.
  induction k as [|k IH]; intros m st w lo Hlo Hst; cbn [rne];
    pose proof (N.div2_odd m) as Hm; set (q := N.div2 m) in *; set (W := 2 ^ w) in *.
  - replace (2 ^ (N.of_nat 1 + w)) with (2 * W) by (rewrite N.pow_add_r; reflexivity).
    destruct (N.odd m); cbn [N.b2n andb] in *.
    + replace (m * W + lo) with (q * (2 * W) + (W + lo)) by lia. rewrite round_even_qr by lia.
      replace (2 * (W + lo) <? 2 * W) with false by lia. replace (2 * W <? 2 * (W + lo)) with st by lia.
      rewrite <- N.negb_odd. destruct st, (N.odd q); cbn [orb negb]; lia.
    + replace (m * W + lo) with (q * (2 * W) + lo) by lia. rewrite round_even_qr by lia.
      now replace (2 * lo <? 2 * W) with true by lia.
  - replace (N.of_nat (S (S k)) + w) with (N.of_nat (S k) + N.succ w) by lia.
    pose proof (N.pow_succ_r' 2 w) as HW. fold W in HW. destruct (N.odd m); cbn [N.b2n] in Hm.
    + rewrite orb_true_r, (IH q true (N.succ w) (W + lo)) by lia. f_equal. lia.
    + rewrite orb_false_r, (IH q st (N.succ w) lo) by lia. f_equal. lia.
Qed.

(* (m, j) stands for m / 2^j.  Every result of r32 has this form, and so has every argument of r32
   in poisson_target except the inverse; on them r32 is computed by counting and dropping bits,
   without a division.  The exponent is unary: it is only ever added to, subtracted from and
   compared with numbers of bits. *)
Definition dy := (N * nat)%type.
Definition dy_frac (x : dy) : frac := (fst x, 2 ^ N.of_nat (snd x)).

Definition dy_r32 (x : dy) : dy :=
  match fst x with
  | 0 => (0, O)
  | Npos p =>
      let j := snd x in
      let s := Pos.size_nat p in
      match (s - 24)%nat with
      | O => (N.shiftl (Npos p) (N.of_nat (24 - s)), (j + (24 - s))%nat)
      | S k =>
          match (j - S k)%nat with
          | O => (* 2^24 <= m / 2^j: the words of r32 *)
              let e := N.of_nat (S k - j) in (round_even (Npos p) (2 ^ N.of_nat j * 2 ^ e) * 2 ^ e, O)
          | E => (rne k (Npos p) false, E)
          end
      end
  end.

Lemma size_nat_log2 p : N.of_nat (Pos.size_nat p) = N.succ (N.log2 (Npos p)).
Proof.
  assert (H : forall q, N.of_nat (Pos.size_nat q) = Npos (Pos.size q)).
  { induction q; cbn [Pos.size_nat Pos.size]; rewrite ?Nat2N.inj_succ, ?IHq; reflexivity. }
  destruct p; cbn [Pos.size_nat N.log2]; rewrite ?Nat2N.inj_succ, ?H; reflexivity.
Qed.

Lemma dy_r32_ok x : r32 (dy_frac x) = dy_frac (dy_r32 x).
Proof.
  destruct x as [[|p] j]; [reflexivity|]. unfold r32, dy_r32, dy_frac. cbn [fst snd N.eqb].
  rewrite f32_exp_pow2 by lia. pose proof (size_nat_log2 p) as Hs. set (s := Pos.size_nat p) in *.
  set (e := (Z.of_N (N.log2 (Npos p)) - Z.of_N (N.of_nat j) - 23)%Z).
  destruct (s - 24)%nat as [|k] eqn:Ek; [|destruct (j - S k)%nat as [|E] eqn:EE]; cbn [fst snd].
  - destruct (0 <=? e)%Z eqn:Ee.
    + (* 24 bits and j = 0 *)
      replace (Z.to_N e) with 0 by lia. replace (24 - s)%nat with O by lia. replace j with O by lia.
      cbn. f_equal. rewrite N.mul_1_r. rewrite <- (N.mul_1_r (Npos p)) at 1. now apply round_even_mul.
    + replace (Z.to_N (- e)) with (N.of_nat (24 - s) + N.of_nat j) by lia.
      rewrite Nat2N.inj_add, (N.add_comm (N.of_nat j)). f_equal.
      rewrite N.pow_add_r, N.mul_assoc, N.shiftl_mul_pow2. apply round_even_mul, pow2_pos.
  - replace (0 <=? e)%Z with true by lia. now replace (Z.to_N e) with (N.of_nat (S k - j)) by lia.
  - replace (0 <=? e)%Z with false by lia. replace (Z.to_N (- e)) with (N.of_nat (S E)) by lia. f_equal.
    rewrite (rne_spec k (Npos p) false 0 0) by reflexivity. rewrite N.mul_1_r, !N.add_0_r.
    replace (N.of_nat j) with (N.of_nat (S E) + N.of_nat (S k)) by lia.
    rewrite N.pow_add_r, (N.mul_comm (Npos p)). apply round_even_scale; apply pow2_pos.
Qed.

Definition r32_dy (x : frac) : dy := let y := r32 x in (fst y, N.to_nat (N.log2 (snd y))).

Lemma r32_dy_ok x : r32 x = dy_frac (r32_dy x).
Proof.
  unfold r32_dy, dy_frac, r32. destruct (fst x =? 0); [reflexivity|].
  destruct (0 <=? f32_exp_of (fst x) (snd x))%Z; cbn [fst snd]; [reflexivity|].
  now rewrite N.log2_pow2, N2Nat.id by lia.
Qed.

Definition dy_mul (x y : dy) : dy := (fst x * fst y, (snd x + snd y)%nat).

Lemma dy_mul_ok x y : fr_mul (dy_frac x) (dy_frac y) = dy_frac (dy_mul x y).
Proof. unfold fr_mul, dy_mul, dy_frac. cbn [fst snd]. now rewrite Nat2N.inj_add, N.pow_add_r. Qed.

Lemma dy_floor x : fr_floor (dy_frac x) = N.shiftr_nat (fst x) (snd x).
Proof. unfold fr_floor, dy_frac. cbn [fst snd]. now rewrite <- Nshiftr_equiv_nat, N.shiftr_div_pow2. Qed.

(* the sum over the larger of the two denominators, not over their product as in fr_add *)
Definition dy_add (x y : dy) : dy :=
  let i := snd x in
  let j := snd y in
  if (i <=? j)%nat then (N.shiftl (fst x) (N.of_nat (j - i)) + fst y, j)
  else (fst x + N.shiftl (fst y) (N.of_nat (i - j)), i).

Lemma dy_add_ok x y : r32 (fr_add (dy_frac x) (dy_frac y)) = r32 (dy_frac (dy_add x y)).
Proof.
  destruct x as [a i], y as [b j]. unfold fr_add, dy_add, dy_frac. cbn [fst snd].
  destruct (i <=? j)%nat eqn:E; cbn [fst snd].
  - rewrite <- (r32_scale2 (N.of_nat i) _ (2 ^ N.of_nat j)) by apply pow2_pos. do 2 f_equal.
    rewrite N.shiftl_mul_pow2. replace (N.of_nat j) with (N.of_nat i + N.of_nat (j - i)) at 1 by lia.
    rewrite N.pow_add_r. ring.
  - rewrite <- (r32_scale2 (N.of_nat j) _ (2 ^ N.of_nat i)) by apply pow2_pos. f_equal. f_equal; [|apply N.mul_comm].
    rewrite N.shiftl_mul_pow2. replace (N.of_nat i) with (N.of_nat j + N.of_nat (i - j)) at 1 by lia.
    rewrite N.pow_add_r. ring.
Qed.

(* an integer below 2^23 is converted exactly: r32 only scales numerator and denominator *)
Lemma r32_int_mul l y : l < 2 ^ 23 -> 0 < snd y -> r32 (fr_mul (r32 (l, 1)) y) = r32 (fr_mul (l, 1) y).
Proof.
  intros Hl Hy. change (l, 1) with (dy_frac (l, O)) at 1. rewrite dy_r32_ok. destruct l as [|p]; [reflexivity|].
  unfold dy_r32. cbn [fst snd].
  assert (Hs : (Pos.size_nat p < 24)%nat).
  { pose proof (size_nat_log2 p). assert (N.log2 (Npos p) < 23) by (apply N.log2_lt_pow2; lia). lia. }
  replace (Pos.size_nat p - 24)%nat with O by lia. unfold fr_mul, dy_frac. cbn [fst snd Nat.add].
  rewrite N.shiftl_mul_pow2, (N.mul_comm (Npos p)), <- N.mul_assoc, N.mul_1_l. apply r32_scale2, Hy.
Qed.

Lemma poisson_a_val : poisson_a = dy_frac (11911823, 23%nat).
Proof. vm_compute. reflexivity. Qed.

Lemma poisson_b_val : poisson_b = dy_frac (10485760, 20%nat).
Proof. vm_compute. reflexivity. Qed.

(* poisson_target, given the rounded inverse of the number of shards *)
Definition dy_target (l : N) (inv : dy) : N :=
  let p1 := dy_r32 (dy_mul (l, O) inv) in
  let p2 := dy_r32 (dy_mul p1 (11911823, 23%nat)) in
  let s := dy_r32 (dy_add p2 (10485760, 20%nat)) in
  N.shiftr_nat (fst s) (snd s).

Lemma poisson_target_dy l n : l < 2 ^ 23 ->
  poisson_target l n = dy_target l (r32_dy (fr_inv (r32 (n, 1)))).
Proof.
  intros Hl. unfold poisson_target, dy_target.
  rewrite poisson_a_val, poisson_b_val, (r32_dy_ok (fr_inv (r32 (n, 1)))).
  rewrite r32_int_mul by (exact Hl || apply pow2_pos). change (l, 1) with (dy_frac (l, O)).
  rewrite dy_mul_ok, dy_r32_ok, dy_mul_ok, dy_r32_ok, dy_add_ok, dy_r32_ok. apply dy_floor.
Qed.

Lemma poisson_target_ge_10 limit n : 10 <= poisson_target limit n.
Proof.
  unfold poisson_target. set (x := fr_mul _ poisson_a). pose proof (r32_den_pos x) as Hp.
  destruct (r32 x) as [a b]. cbn [snd] in Hp. rewrite poisson_b_val.
  unfold fr_add, dy_frac. cbn [fst snd]. change (2 ^ N.of_nat 20) with 1048576.
  pose proof (r32_ge_10 (a * 1048576 + 10485760 * b) (b * 1048576) ltac:(lia) ltac:(lia)) as H.
  pose proof (r32_den_pos (a * 1048576 + 10485760 * b, b * 1048576)) as Hd.
  unfold fr_floor. apply N.div_le_lower_bound; lia.
Qed.

Lemma per_shard_limit_bounds : forall limit nshards maxlimit,
  per_shard_limit limit nshards maxlimit <= limit /\
  per_shard_limit limit nshards maxlimit <= maxlimit /\
  N.min (N.min 10 maxlimit) limit <= per_shard_limit limit nshards maxlimit /\
  (1 <= limit -> 1 <= maxlimit -> 1 <= per_shard_limit limit nshards maxlimit).
Proof.
  intros limit n mx. unfold per_shard_limit. pose proof (poisson_target_ge_10 limit n). lia.
Qed.

Lemma per_shard_limit_pos limit n maxlimit : 1 <= limit -> 1 <= maxlimit -> per_shard_limit limit n maxlimit <> 0.
Proof. intros H1 H2. pose proof (per_shard_limit_bounds limit n maxlimit) as [_ [_ [_ H]]]. specialize (H H1 H2). lia. Qed.

Fixpoint N_seq (a : N) (k : nat) : list N :=
  match k with O => [] | S k => a :: N_seq (N.succ a) k end.

Lemma forallb_N_seq f k : forall a x, forallb f (N_seq a k) = true -> a <= x < a + N.of_nat k -> f x = true.
Proof.
  induction k as [|k IH]; intros a x H Hx; [lia|]. cbn [N_seq forallb] in H. apply andb_true_iff in H.
  destruct (N.eq_dec x a) as [->|Hne]; [apply H|]. apply (IH (N.succ a)); [apply H|lia].
Qed.

(* in the range of the API (limit <= 100) and up to 64 shards the target t of the four rounded float32
   operations has t - 10 = floor(142 * limit / (100 * nshards)); said with products, which are cheaper
   to evaluate than the quotient *)
Lemma poisson_table :
  forallb (fun n => let inv := r32_dy (fr_inv (r32 (n, 1))) in
                    let c := 100 * n in
                    forallb (fun l => let q := (dy_target l inv - 10) * c in (q <=? 142 * l) && (142 * l <? q + c))
                            (N_seq 0 101))
          (N_seq 1 64) = true.
Proof. vm_compute. reflexivity. Qed.

Lemma per_shard_offset_cases o n :
  (n <= 1 -> per_shard_offset o n = o) /\
  (1 < n -> o mod n = 0 -> per_shard_offset o n = o / n /\ n * per_shard_offset o n = o) /\
  (1 < n -> o mod n <> 0 -> per_shard_offset o n = o).
Proof.
  unfold per_shard_offset. destruct (1 <? n) eqn:E; cbn [andb]; [|repeat split; intros; lia].
  split; [lia|]. split.
  - intros _ Hm. rewrite Hm. cbn. pose proof (N.div_mod' o n). lia.
  - intros _ Hm. now replace (o mod n =? 0) with false by lia.
Qed.

Lemma page_split {A} (o l : N) (xs : list A) : l <> 0 ->
  page o l xs = firstn (N.to_nat l) (skipn (N.to_nat o) xs).
Proof. intros H. unfold page. destruct (l =? 0) eqn:E; [lia|reflexivity]. Qed.

Lemma skipped_total {A} (o : nat) (full : list (list A)) :
  Forall (fun a => (o <= length a)%nat) full ->
  length (concat (map (firstn o) full)) = (length full * o)%nat.
Proof.
  induction 1 as [|a full Ha _ IH]; [reflexivity|]. cbn. rewrite app_length, IH, firstn_length. lia.
Qed.

Lemma skipped_bound {A} (o : nat) (full : list (list A)) :
  (length (concat (map (firstn o) full)) <= length full * o)%nat.
Proof.
  induction full as [|a full IH]; [reflexivity|]. cbn. rewrite app_length.
  pose proof (firstn_le_length o a). lia.
Qed.

Lemma cluster_search_single keys limit offset maxlimit (a : list row) : 1 <= limit -> 1 <= maxlimit ->
  cluster_search keys limit offset maxlimit [a] =
  firstn (N.to_nat (per_shard_limit limit 1 maxlimit)) (skipn (N.to_nat offset) a).
Proof.
  intros H1 H2. unfold cluster_search, shard_pages, merge_search, cut. cbn [length map concat Nat.ltb Nat.leb].
  change (N.of_nat 1) with 1. rewrite app_nil_r, (proj1 (per_shard_offset_cases offset 1)) by lia.
  rewrite page_split by now apply per_shard_limit_pos. rewrite firstn_firstn. f_equal.
  pose proof (per_shard_limit_bounds limit 1 maxlimit) as [H _]. lia.
Qed.

Lemma shard_pages_full limit maxlimit (full : list (list row)) : 1 <= limit -> 1 <= maxlimit ->
  Forall (fun a => (length a <= N.to_nat (per_shard_limit limit (N.of_nat (length full)) maxlimit))%nat) full ->
  shard_pages limit 0 maxlimit full = full.
Proof.
  intros H1 H2 HF. unfold shard_pages. set (n := N.of_nat (length full)) in *.
  replace (per_shard_offset 0 n) with 0 by (unfold per_shard_offset; now destruct n as [|[]]).
  rewrite <- (map_id full) at 2. apply map_ext_in. intros a Ha. rewrite Forall_forall in HF.
  rewrite page_split by now apply per_shard_limit_pos. apply firstn_all2, HF, Ha.
Qed.
