(* Props_C02.v -- property C02: filter queries return exactly the live points
   that satisfy the predicate.  Statements about the mechanism model
   Model_C02M.v (one inverted index as the code keeps it) and the reference
   spec Model_C02.v; the proofs are instances of, or a few steps from, the
   lemmas of Proofs_C02.v, and the concrete witnesses are evaluated here.

   Reading guide.  A history is a list of write batches, a batch a list of
   changes (node id, previous value, current value) as the dispatcher hands
   them to the index.  `consistent valid hs`: every change carries as previous
   value exactly what is stored for that node at that moment (and all values
   are `valid`: int64 range / non-NaN float64 bit pattern / any string).
   `stored_after hs n` is the indexed field value of node n after the history
   (None: the point is not live or lacks the field).  `same_set r P`: the id
   list r has no duplicates and its members are exactly the n with P n. *)
From Coq Require Import List NArith ZArith Bool Permutation.
From Semadb Require Import Bytes U64 KV Value Obs Model_C19 Proofs_C19 Model_C01 Model_C02 Model_C02M Proofs_C02.
Import ListNotations.
Open Scope N_scope.

(* generic: any value type whose Go equality and sortable key agree *)
Theorem c02_postings_inv :
  forall (V : Type) (enc : V -> bytes) (veqb : V -> V -> bool) (valid : V -> Prop),
  (forall a b, valid a -> valid b -> (veqb a b = true <-> enc a = enc b)) ->
  forall hs : list (list (@change V)), consistent valid hs ->
    let b := run_history enc veqb hs in
    let st := stored_after hs in
    ksorted (b_keys b) /\                                               (* keys unique, in cursor order *)
    (forall k s, b_get k b = Some s -> s <> [] /\ NoDup s) /\           (* no empty sets *)
    (forall k n, In n (getset k b) <-> exists v, st n = Some v /\ enc v = k).
Proof. intros V enc veqb valid H hs Hc. apply and_assoc, (run_consistent enc veqb valid H hs Hc). Qed.
Print Assumptions c02_postings_inv.

Theorem c02_postings_inv_int : forall hs, consistent in_i64 hs ->
  let b := int_run hs in
  ksorted (b_keys b) /\
  (forall k s, b_get k b = Some s -> s <> [] /\ NoDup s) /\
  (forall k n, In n (getset k b) <-> exists v, stored_after hs n = Some v /\ enc_i64 v = k).
Proof. intros hs Hc. apply and_assoc, (run_consistent enc_i64 Z.eqb in_i64 int_enc_veqb hs Hc). Qed.
Print Assumptions c02_postings_inv_int.

Theorem c02_postings_inv_float : forall hs, consistent f64_valid hs ->
  let b := flt_run hs in
  ksorted (b_keys b) /\
  (forall k s, b_get k b = Some s -> s <> [] /\ NoDup s) /\
  (forall k n, In n (getset k b) <-> exists v, stored_after hs n = Some v /\ enc_f64 v = k).
Proof. intros hs Hc. apply and_assoc, (run_consistent enc_f64 f64_eq f64_valid flt_enc_veqb hs Hc). Qed.
Print Assumptions c02_postings_inv_float.

Theorem c02_postings_inv_str : forall (fold : bytes -> bytes) hs, consistent any_str hs ->
  let b := str_run fold hs in
  ksorted (b_keys b) /\
  (forall k s, b_get k b = Some s -> s <> [] /\ NoDup s) /\
  (forall k n, In n (getset k b) <-> exists x, stored_after hs n = Some x /\ fold x = k).
Proof. intros fold hs Hc. apply and_assoc, (str_run_consistent fold hs Hc). Qed.
Print Assumptions c02_postings_inv_str.

Theorem c02_postings_inv_strarr : forall (fold : bytes -> bytes) hs, aconsistent hs ->
  let b := sarr_run fold hs in
  ksorted (b_keys b) /\
  (forall k s, b_get k b = Some s -> s <> [] /\ NoDup s) /\
  (forall k n, In n (getset k b) <-> In k (map fold (astored_after hs n))).
Proof. intros fold hs Hc. apply and_assoc, (sarr_inv fold hs Hc). Qed.
Print Assumptions c02_postings_inv_strarr.

(* Go ranges over the set cache in unspecified order when flushing; with the
   pairwise distinct keys the invariant provides, every order writes the same bucket *)
Theorem c02_flush_order_irrelevant :
  forall (V : Type) (enc : V -> bytes) (c c' : @cache V) b,
  Permutation c c' -> NoDup (map (fun it => enc (it_val it)) c) ->
  forall k, b_get k (flush enc c b) = b_get k (flush enc c' b).
Proof.
  intros V enc c c' b Hp Hnd k.
  rewrite !flush_get, (find_key_perm enc c c' k Hp Hnd); [reflexivity| |exact Hnd].
  eapply Permutation_NoDup; [|exact Hnd]. now apply Permutation_map.
Qed.
Print Assumptions c02_flush_order_irrelevant.

(* integers: every operator the API accepts on the index (op_num: equals,
   notEquals, greaterThan, greaterThanOrEquals, lessThan, lessThanOrEquals,
   inRange), every int64 value and end value *)
Theorem c02_search_exact_int : forall hs op q e,
  consistent in_i64 hs -> in_i64 q -> in_i64 e -> op_num op ->
  exists r, int_search op q e (int_run hs) = Some r /\
    same_set r (fun n => exists v, stored_after hs n = Some v /\ matches_int op q e v = true).
Proof.
  exact (search_values enc_i64 dec_i64 Z.eqb in_i64 int_enc_veqb int_dec_valid int_dec_enc
           Z.compare enc_i64_compare).
Qed.
Print Assumptions c02_search_exact_int.

(* floats: non-NaN bit patterns, IEEE order and equality (-0.0 = +0.0) *)
Theorem c02_search_exact_float : forall hs op q e,
  consistent f64_valid hs -> f64_valid q -> f64_valid e -> op_num op ->
  exists r, flt_search op q e (flt_run hs) = Some r /\
    same_set r (fun n => exists v, stored_after hs n = Some v /\ matches_float op q e v = true).
Proof.
  exact (search_values enc_f64 dec_f64 f64_eq f64_valid flt_enc_veqb flt_dec_valid flt_dec_enc
           (fun a b => Z.compare (f64_ord a) (f64_ord b)) flt_enc_cmp).
Qed.
Print Assumptions c02_search_exact_float.

(* strings: all eight operators incl. startsWith; `fold` is strings.ToLower on a
   case-insensitive index and the identity on a case-sensitive one; it is
   applied to the stored value, the query value and the end value *)
Theorem c02_search_exact_str : forall (fold : bytes -> bytes) hs op q e,
  consistent any_str hs -> op_scan op ->
  exists r, str_search fold op q e (str_run fold hs) = Some r /\
    same_set r (fun n => exists x, stored_after hs n = Some x /\
                                   matches_str op (fold q) (fold e) (fold x) = true).
Proof. exact str_search_exact. Qed.
Print Assumptions c02_search_exact_str.

(* string arrays: containsAll / containsAny of a non-empty query list *)
Theorem c02_search_exact_strarr : forall (fold : bytes -> bytes) hs op qs,
  aconsistent hs -> qs <> [] -> op = OP_ALL \/ op = OP_ANY ->
  exists r, sarr_search fold op qs (sarr_run fold hs) = Some r /\
    same_set r (fun n =>
      (if op =? OP_ALL then forallb (fun x => mem_bytes x (map fold (astored_after hs n))) (map fold qs)
       else existsb (fun x => mem_bytes x (map fold (astored_after hs n))) (map fold qs)) = true).
Proof. exact sarr_search_exact. Qed.
Print Assumptions c02_search_exact_strarr.

(* the same for any value type with an order-embedding key (this is where the
   C19 theorems c19_i64_order / c19_f64_order enter) *)
Theorem c02_search_exact_generic :
  forall (V : Type) (enc : V -> bytes) (dec : bytes -> V) (veqb : V -> V -> bool) (valid : V -> Prop),
  (forall a b, valid a -> valid b -> (veqb a b = true <-> enc a = enc b)) ->
  (forall a, valid a -> valid (dec (enc a))) ->
  (forall a, valid a -> enc (dec (enc a)) = enc a) ->
  forall vcmp : V -> V -> comparison,
  (forall a b, valid a -> valid b -> lex_compare (enc a) (enc b) = vcmp a b) ->
  forall hs op q e, consistent valid hs -> valid q -> valid e -> op_num op ->
  exists r, search enc dec veqb op q e (run_history enc veqb hs) = Some r /\ NoDup r /\
    forall n, In n r <-> exists v, stored_after hs n = Some v /\ cmp_matches op (vcmp v q) (vcmp v e) = true.
Proof. exact (@search_values). Qed.
Print Assumptions c02_search_exact_generic.

(* the predicates that characterise the answers in c02_search_exact_int / _float / _str /
   _strarr (matches_int, matches_float, matches_str on folded values, the forallb / existsb
   over the folded array) are the leaf predicate of the reference spec
   Model_C02.leaf_matches with  stored n := the field of n's document *)
Theorem c02_spec_leaf_shape :
  (forall sc t p op q e d, schema_get p sc = Some IInt ->
     leaf_matches sc t (QInt p op q e) d =
     Some (match field_int p d with Some x => matches_int op q e x | None => false end)) /\
  (forall sc t p op q e d, schema_get p sc = Some IFloat ->
     leaf_matches sc t (QFloat p op q e) d =
     Some (match field_f64 p d with Some x => matches_float op q e x | None => false end)) /\
  (forall sc t cs fold p op q e d, schema_get p sc = Some (IStr cs) ->
     (forall s, fold_str cs t s = Some (fold s)) ->
     leaf_matches sc t (QStr p op q e) d =
     Some (match field_str p d with Some x => matches_str op (fold q) (fold e) (fold x) | None => false end)) /\
  (forall sc t cs fold p op qs d, schema_get p sc = Some (IStrArr cs) ->
     (forall s, fold_str cs t s = Some (fold s)) -> qs <> [] -> op = OP_ALL \/ op = OP_ANY ->
     leaf_matches sc t (QStrArr p op qs) d =
     Some (if op =? OP_ALL then forallb (fun x => mem_bytes x (map fold (field_strs p d))) (map fold qs)
           else existsb (fun x => mem_bytes x (map fold (field_strs p d))) (map fold qs))).
Proof.
  split; [|split; [|split; [|exact leaf_strarr_shape]]]; intros *; intros H;
    unfold leaf_matches, field_int, field_f64, field_str; rewrite H.
  - now destruct (prop_value p d) as [| |[]].
  - now destruct (prop_value p d) as [| |[]].
  - intros Hf. rewrite !Hf. destruct (prop_value p d) as [| |[]]; try reflexivity. now rewrite Hf.
Qed.
Print Assumptions c02_spec_leaf_shape.

Theorem c02_bool_algebra :
  (* reference spec: ids_inter / ids_union are intersection / union ... *)
  (forall x a b, mem_bytes x (ids_inter a b) = mem_bytes x a && mem_bytes x b) /\
  (forall x a b, mem_bytes x (ids_union a b) = mem_bytes x a || mem_bytes x b) /\
  (* ... and the answer of _and / _or is the intersection / union of the sub-answers *)
  (forall sc t live qs r, answer sc t live (QAnd qs) = Some r ->
     exists subs, Forall2 (fun q a => answer sc t live q = Some a) qs subs /\
       forall x, mem_bytes x r = mem_bytes x (map fst live) && forallb (mem_bytes x) subs) /\
  (forall sc t live qs r, answer sc t live (QOr qs) = Some r ->
     exists subs, Forall2 (fun q a => answer sc t live q = Some a) qs subs /\
       forall x, mem_bytes x r = existsb (mem_bytes x) subs) /\
  (* mechanism (search.go searchParallel: one sub-result is passed through, several go to FastAnd / FastOr) *)
  (forall sets n, sets <> [] -> (In n (combine false sets) <-> forall s, In s sets -> In n s)) /\
  (forall sets n, In n (combine true sets) <-> exists s, In s sets /\ In n s) /\
  (forall is_or sets, Forall (@NoDup N) sets -> NoDup (combine is_or sets)).
Proof.
  exact (conj IdSets.mem_ids_inter (conj IdSets.mem_ids_union (conj answer_and_spec (conj answer_or_spec
        (conj combine_and_In (conj combine_or_In combine_NoDup)))))).
Qed.
Print Assumptions c02_bool_algebra.

Theorem c02_backends_agree :
  (forall l s e incl, ksorted l -> bbolt_range l s e incl = mem_range l s e incl) /\
  (forall l p, ksorted l -> bbolt_prefix l p = mem_prefix l p) /\
  (forall (V : Type) (enc : V -> bytes) (dec : bytes -> V) (veqb : V -> V -> bool) b op q e,
     ksorted (b_keys b) -> search_mem enc dec veqb op q e b = search enc dec veqb op q e b) /\
  (forall hs op q e, consistent in_i64 hs ->
     int_search_mem op q e (int_run hs) = int_search op q e (int_run hs)) /\
  (forall hs op q e, consistent f64_valid hs ->
     flt_search_mem op q e (flt_run hs) = flt_search op q e (flt_run hs)) /\
  (forall fold hs op q e, consistent any_str hs ->
     str_search_mem fold op q e (str_run fold hs) = str_search fold op q e (str_run fold hs)).
Proof.
  split; [exact backends_agree_range|]. split; [exact bbolt_prefix_spec|].
  split; [exact (@backends_agree)|].
  split; [exact (backends_agree_hist enc_i64 dec_i64 Z.eqb in_i64 int_enc_veqb)|].
  split; [exact (backends_agree_hist enc_f64 dec_f64 f64_eq f64_valid flt_enc_veqb)|].
  intros fold hs op q e Hc. exact (backends_agree_hist enc_str dec_str bytes_eqb any_str str_enc_veqb
                                     _ op (fold q) (fold e) (consistent_fold fold hs Hc)).
Qed.
Print Assumptions c02_backends_agree.

Theorem c02_absent_never_matches :
  forall (V : Type) (enc : V -> bytes) (dec : bytes -> V) (veqb : V -> V -> bool) (valid : V -> Prop),
  (forall a b, valid a -> valid b -> (veqb a b = true <-> enc a = enc b)) ->
  forall hs n, consistent valid hs -> stored_after hs n = None ->
    (forall k, set_mem n (getset k (run_history enc veqb hs)) = false) /\
    (forall op q e r, search enc dec veqb op q e (run_history enc veqb hs) = Some r -> ~ In n r) /\
    (forall op q e r, search_mem enc dec veqb op q e (run_history enc veqb hs) = Some r -> ~ In n r).
Proof. exact (@absent_never_matches). Qed.
Print Assumptions c02_absent_never_matches.

Theorem c02_absent_never_matches_strarr : forall (fold : bytes -> bytes) hs n,
  aconsistent hs -> astored_after hs n = [] -> forall k, ~ In n (getset k (sarr_run fold hs)).
Proof. intros fold hs n Hc Hn k H. apply (sarr_inv fold hs Hc) in H. now rewrite Hn in H. Qed.
Print Assumptions c02_absent_never_matches_strarr.

(* F1 (repaired by d0d2b37): with the float encoder of the pinned tree the
   search theorem and the posting invariant are FALSE; -0.0 is the witness *)
Theorem c02_negzero_refuted :
  ~ (forall hs op q e, consistent f64_valid hs -> f64_valid q -> f64_valid e -> op_num op ->
       exists r, flt0_search op q e (flt0_run hs) = Some r /\
         same_set r (fun n => exists v, stored_after hs n = Some v /\ matches_float op q e v = true)) /\
  ~ (forall hs, consistent f64_valid hs ->
       forall k n, In n (getset k (flt0_run hs)) <-> exists v, stored_after hs n = Some v /\ enc_f64_v0 v = k) /\
  (* concretely: -0.0 stored for node 1, +0.0 for node 2 (two batches / one batch) *)
  (consistent f64_valid hs_nz_two /\ consistent f64_valid hs_nz_one /\
   flt0_search OP_EQ 0 0 (flt0_run hs_nz_two) = Some [2] /\
   flt0_search OP_LT bits_m1 bits_m1 (flt0_run hs_nz_two) = Some [1] /\
   matches_float OP_LT bits_m1 bits_m1 two63 = false /\
   flt0_search OP_EQ 0 0 (flt0_run hs_nz_one) = Some [] /\
   flt_search OP_EQ 0 0 (flt_run hs_nz_two) = Some [1; 2] /\
   flt_search OP_EQ 0 0 (flt_run hs_nz_one) = Some [1; 2] /\
   flt_search OP_LT bits_m1 bits_m1 (flt_run hs_nz_two) = Some []).
Proof.
  assert (C2 : consistent f64_valid hs_nz_two) by (vm_compute; repeat split).
  assert (C1 : consistent f64_valid hs_nz_one) by (vm_compute; repeat split).
  split; [|split; [|split; [exact C2|split; [exact C1|vm_compute; repeat split]]]]; intros H.
  - (* equals 0.0 returns [2], yet node 1 holds -0.0 *)
    generalize (H hs_nz_two OP_EQ 0 0 C2 ltac:(now split) ltac:(now split) ltac:(now left)).
    apply (returns_refute _ [2] _ 1).
    + now vm_compute.
    + exists two63. now vm_compute.
    + now intros [|[]].
  - (* in one batch the cache entry of -0.0 swallows +0.0: node 2 lands under the key of -0.0 *)
    destruct (proj1 (H hs_nz_one C1 (enc_f64_v0 two63) 2)) as (v & S1 & S2); [vm_compute; auto|].
    vm_compute in S1. injection S1 as <-. now vm_compute in S2.
Qed.
Print Assumptions c02_negzero_refuted.

(* F2 (repaired by 703e907): lower-casing only the start value of a range *)
Theorem c02_range_fold_refuted :
  ~ (forall fold hs op q e, consistent any_str hs -> op_scan op ->
       exists r, str_search_v0 fold op q e (str_run fold hs) = Some r /\
         same_set r (fun n => exists x, stored_after hs n = Some x /\
                                        matches_str op (fold q) (fold e) (fold x) = true)) /\
  (* concretely: "b" stored, inRange "A".."C" on a case-insensitive index *)
  (consistent any_str hs_fold /\
   str_search_v0 ascii_lower OP_RANGE [65] [67] (str_run ascii_lower hs_fold) = Some [] /\
   str_search ascii_lower OP_RANGE [65] [67] (str_run ascii_lower hs_fold) = Some [1] /\
   matches_str OP_RANGE (ascii_lower [65]) (ascii_lower [67]) (ascii_lower [98]) = true).
Proof.
  assert (C : consistent any_str hs_fold) by (vm_compute; repeat split).
  split; [|split; [exact C|vm_compute; repeat split]]. intros H.
  generalize (H ascii_lower hs_fold OP_RANGE [65] [67] C ltac:(unfold op_scan, OP_RANGE; tauto)).
  apply (returns_refute _ [] _ 1).
  - now vm_compute.
  - exists [98]. now vm_compute.
  - intros [].
Qed.
Print Assumptions c02_range_fold_refuted.

(* remark: startsWith on a numeric index -- refused by the API (models/search.go),
   given no match by Model_C02.matches_int -- behaves as equals in the mechanism *)
Theorem c02_numeric_startswith_is_equals : forall hs q e, consistent in_i64 hs -> in_i64 q ->
  exists r, int_search OP_PREFIX q e (int_run hs) = Some r /\
    same_set r (fun n => stored_after hs n = Some q).
Proof.
  intros hs q e Hc Hq. eapply returns_ext;
    [|exact (search_prefix_fixed_len enc_i64 dec_i64 Z.eqb in_i64 int_enc_veqb int_dec_valid int_dec_enc
               8%nat hs q e (fun a _ => enc_i64_length a) Hc Hq)].
  intros n. split; [intros (v & S & E); apply Z.eqb_eq in E; now subst|].
  intros S. exists q. now rewrite Z.eqb_refl.
Qed.
Print Assumptions c02_numeric_startswith_is_equals.

Theorem c02_float_startswith_is_equals : forall hs q e, consistent f64_valid hs -> f64_valid q ->
  exists r, flt_search OP_PREFIX q e (flt_run hs) = Some r /\
    same_set r (fun n => exists v, stored_after hs n = Some v /\ f64_eq v q = true).
Proof.
  intros hs q e. exact (search_prefix_fixed_len enc_f64 dec_f64 f64_eq f64_valid flt_enc_veqb flt_dec_valid
                          flt_dec_enc 8%nat hs q e (fun a _ => enc_f64_length a)).
Qed.
Print Assumptions c02_float_startswith_is_equals.

(* any other operator code is refused ("unknown inverted search operator") *)
Theorem c02_unknown_operator : forall (V : Type) (enc : V -> bytes) (dec : bytes -> V) (veqb : V -> V -> bool) op q e b,
  7 < op -> search enc dec veqb op q e b = None.
Proof. intros V enc dec veqb op q e b H. now destruct op as [|[[[]|[]|]|[[]|[]|]|]]. Qed.
Print Assumptions c02_unknown_operator.

Open Scope Z_scope.
Definition zmin : Z := -9223372036854775808.
Definition zmax : Z := 9223372036854775807.
(* inserts; an update that changes, one that does not, one that removes the
   field, one that adds it; a delete and a change to an earlier value *)
Definition ex_int : list (list (@change Z)) :=
  [ [mkChange 1 None (Some zmin); mkChange 2 None (Some (-1)); mkChange 3 None (Some 0);
     mkChange 4 None (Some zmax); mkChange 5 None (Some 7); mkChange 6 None None];
    [mkChange 2 (Some (-1)) (Some 7); mkChange 3 (Some 0) (Some 0); mkChange 5 (Some 7) None;
     mkChange 6 None (Some 0)];
    [mkChange 1 (Some zmin) None; mkChange 4 (Some zmax) (Some (-1))] ].
Close Scope Z_scope.

Example c02_ex_int_consistent : consistent in_i64 ex_int.
Proof. vm_compute. repeat split; discriminate. Qed.

Example c02_ex_int :
  int_run ex_int = [ (enc_i64 (-1), [4]); (enc_i64 0, [3; 6]); (enc_i64 7, [2]) ] /\
  int_search OP_EQ 7 0 (int_run ex_int) = Some [2] /\              (* node 5 no longer has the field *)
  int_search OP_NE 0 0 (int_run ex_int) = Some [2; 4] /\
  int_search OP_GT (-1) 0 (int_run ex_int) = Some [2; 3; 6] /\
  int_search OP_GE (-1) 0 (int_run ex_int) = Some [2; 3; 4; 6] /\
  int_search OP_LT zmin 0 (int_run ex_int) = Some [] /\
  int_search OP_LE zmax 0 (int_run ex_int) = Some [2; 3; 4; 6] /\
  int_search OP_RANGE (-1) 0 (int_run ex_int) = Some [3; 4; 6] /\
  int_search OP_EQ zmin 0 (int_run ex_int) = Some [] /\           (* deleted point *)
  int_search_mem OP_RANGE zmin zmax (int_run ex_int) = Some [2; 3; 4; 6] /\
  stored_after ex_int 5 = None /\ stored_after ex_int 4 = Some (-1)%Z.
Proof. pattern (int_run ex_int). vm_compute. repeat split. Qed.

(* floats: both zeros in one batch, -Inf, the smallest subnormal, -1.5; then
   -0.0 "updated" to +0.0 (Go: equal, no change), -Inf deleted *)
Definition ex_flt : list (list (@change N)) :=
  [ [mkChange 1 None (Some two63); mkChange 2 None (Some 0); mkChange 3 None (Some 18442240474082181120);
     mkChange 4 None (Some 1); mkChange 5 None (Some 13832806255468478464)];
    [mkChange 1 (Some two63) (Some 0)];
    [mkChange 3 (Some 18442240474082181120) None] ].

Example c02_ex_flt_consistent : consistent f64_valid ex_flt.
Proof. vm_compute. repeat split. Qed.

Example c02_ex_flt :
  flt_search OP_EQ 0 0 (flt_run ex_flt) = Some [1; 2] /\
  flt_search OP_EQ two63 0 (flt_run ex_flt) = Some [1; 2] /\      (* equals -0.0 *)
  flt_search OP_LT 0 0 (flt_run ex_flt) = Some [5] /\
  flt_search OP_GE two63 0 (flt_run ex_flt) = Some [1; 2; 4] /\
  flt_search OP_GT 0 0 (flt_run ex_flt) = Some [4] /\              (* 5e-324 > 0 *)
  flt_search OP_RANGE 18442240474082181120 two63 (flt_run ex_flt) = Some [1; 2; 5] /\
  flt_search OP_NE 1 0 (flt_run ex_flt) = Some [1; 2; 5].
Proof. pattern (flt_run ex_flt). vm_compute. repeat split. Qed.

(* strings on a case-insensitive index: "Apple" "apple" "APPLES" "b" "ab";
   "Apple" rewritten as "APPLE" (same folded value), "b" removed *)
Definition ex_str : list (list (@change bytes)) :=
  [ [mkChange 1 None (Some [65;112;112;108;101]); mkChange 2 None (Some [97;112;112;108;101]);
     mkChange 3 None (Some [65;80;80;76;69;83]); mkChange 4 None (Some [98]); mkChange 5 None (Some [97;98])];
    [mkChange 1 (Some [65;112;112;108;101]) (Some [65;80;80;76;69]); mkChange 4 (Some [98]) None] ].

Example c02_ex_str_consistent : consistent any_str ex_str.
Proof. vm_compute. repeat split. Qed.

Example c02_ex_str :
  str_search ascii_lower OP_EQ [97;80;80;108;101] [] (str_run ascii_lower ex_str) = Some [1; 2] /\   (* "aPPle" *)
  str_search ascii_lower OP_PREFIX [65;80] [] (str_run ascii_lower ex_str) = Some [1; 2; 3] /\       (* "AP" *)
  str_search ascii_lower OP_PREFIX [97] [] (str_run ascii_lower ex_str) = Some [1; 2; 3; 5] /\
  str_search ascii_lower OP_GT [97;112;112;108;101] [] (str_run ascii_lower ex_str) = Some [3] /\    (* a prefix of "apples" *)
  str_search ascii_lower OP_RANGE [65] [66] (str_run ascii_lower ex_str) = Some [1; 2; 3; 5] /\      (* "A".."B" *)
  str_search ascii_lower OP_NE [97;98] [] (str_run ascii_lower ex_str) = Some [1; 2; 3] /\
  (* the same data on a case-sensitive index (identity fold) *)
  str_search (fun s => s) OP_EQ [97;112;112;108;101] [] (str_run (fun s => s) ex_str) = Some [2] /\
  str_search (fun s => s) OP_LT [97] [] (str_run (fun s => s) ex_str) = Some [1; 3].
Proof. vm_compute. repeat split. Qed.

(* string arrays: ["Red";"red";"blue"], ["x"], then node 1 := ["blue";"x"], node 2 := [] *)
Definition ex_arr : list (list (@achange bytes)) :=
  [ [mkAChange 1 [] [[82;101;100]; [114;101;100]; [98;108;117;101]]; mkAChange 2 [] [[120]]];
    [mkAChange 1 [[82;101;100]; [114;101;100]; [98;108;117;101]] [[98;108;117;101]; [120]]; mkAChange 2 [[120]] []] ].

Example c02_ex_arr_consistent : aconsistent ex_arr.
Proof. vm_compute. repeat split. Qed.

Example c02_ex_arr :
  sarr_run ascii_lower ex_arr = [ ([98;108;117;101], [1]); ([120], [1]) ] /\
  sarr_search ascii_lower OP_ALL [[66;76;85;69]; [120]] (sarr_run ascii_lower ex_arr) = Some [1] /\   (* "BLUE","x" *)
  sarr_search ascii_lower OP_ANY [[114;101;100]; [120]] (sarr_run ascii_lower ex_arr) = Some [1] /\   (* "red" is gone *)
  sarr_search ascii_lower OP_ALL [[114;101;100]] (sarr_run ascii_lower ex_arr) = Some [] /\
  astored_after ex_arr 2 = [].
Proof. vm_compute. repeat split. Qed.
