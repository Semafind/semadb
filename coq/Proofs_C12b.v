(* Proofs_C12b.v -- deadlock freedom, the deadlock of the pinned lock order,
   clean error on a stale entry, loading again after everything finished. *)
From Coq Require Import List Arith Bool Lia.
From Semadb Require Import Model_C12 Proofs_C12.
Import ListNotations.

Fixpoint exec_b (fixed : bool) (st : state) (l : list tid) : option state :=
  match l with
  | [] => Some st
  | t :: r => match step fixed st t with Some st' => exec_b fixed st' r | None => None end
  end.

Lemma exec_b_sound : forall fixed l st st', exec_b fixed st l = Some st' -> exec fixed st l st'.
Proof.
  induction l; simpl; intros st st' H.
  - inversion H. constructor.
  - destruct (step fixed st a) eqn:Hs; try discriminate. econstructor; eauto.
Qed.

(* a state computed from an initial state by a schedule all of whose steps are enabled *)
Lemma reached : forall fixed nd specs sched st (P : state -> Prop),
  Forall (spec_ok nd) specs -> exec_b fixed (init nd specs) sched = Some st -> P st ->
  exists st, reachable fixed st /\ P st.
Proof.
  intros fixed nd specs sched st P Hok Hx HP. exists st. split; auto.
  exists nd, specs, sched. split; auto. apply exec_b_sound. auto.
Qed.

Lemma exec_app : forall fixed st l1 st1 l2 st2,
  exec fixed st l1 st1 -> exec fixed st1 l2 st2 -> exec fixed st (l1 ++ l2) st2.
Proof. induction 1; simpl; intros; auto. econstructor; eauto. Qed.

Lemma reachable_exec : forall fixed st l st', exec fixed st l st' -> reachable fixed st -> reachable fixed st'.
Proof.
  intros fixed st l st' H (nd & specs & sched & Hok & Hex).
  exists nd, specs, (sched ++ l). split; auto. eapply exec_app; eauto.
Qed.

Lemma T_overflow : forall st n, length (thr st) <= n -> T st n = dthr.
Proof. intros. apply nth_overflow. auto. Qed.

Lemma tid_eq_dec : forall a b : tid, {a = b} + {a <> b}.
Proof. decide equality; apply Nat.eq_dec. Defined.

Lemma deadlockedb_sound : forall fixed st, deadlockedb fixed st = true ->
  unfinished st /\ forall t, step fixed st t = None.
Proof.
  intros fixed st H. unfold deadlockedb in H. apply andb_true_iff in H. destruct H as [Hu Hd].
  split.
  - unfold unfinishedb in Hu. apply existsb_exists in Hu. destruct Hu as [t [_ Ht]].
    exists t. destruct (finished st t); simpl in Ht; congruence.
  - rewrite forallb_forall in Hd. intros t.
    destruct (in_dec tid_eq_dec t (all_tids st)) as [Hin|Hin].
    + specialize (Hd _ Hin). unfold enabledb in Hd. destruct (step fixed st t); simpl in Hd; congruence.
    + unfold all_tids in Hin. rewrite in_app_iff, !in_map_iff in Hin.
      destruct t as [n|e]; simpl.
      * rewrite T_overflow; auto.
        destruct (Nat.lt_ge_cases n (length (thr st))); auto.
        destruct Hin. left. exists n. split; auto. apply in_seq. lia.
      * unfold step_idle. rewrite E_overflow; auto.
        destruct (Nat.lt_ge_cases e (length (ents st))); auto.
        destruct Hin. right. exists e. split; auto. apply in_seq. lia.
Qed.

Definition deadlock_specs : list spec := [SReq 0; SDel].
Definition deadlock_sched : list tid :=
  [TC 0; TC 0; TC 0; TC 0; TC 0; TC 0; TC 0; TC 0;      (* a request loads shard 0 and returns *)
   TI 0; TI 0; TI 0;                                    (* idle timer fires; the routine takes mu *)
   TC 1; TC 1; TC 1;                                    (* deletion takes shardLock, finds the entry *)
   TI 0; TI 0].                                         (* the routine closes the shard, wants shardLock *)

(* the same schedule is harmless with the current lock order *)
Lemma deadlock_sched_fixed_ok :
  exists st, exec_b true (init 1 deadlock_specs) (deadlock_sched ++ [TI 0; TC 1; TC 1; TC 1; TC 1; TC 1; TC 1; TC 1; TC 1; TI 0; TI 0; TI 0]) = Some st
             /\ unfinishedb st = false.
Proof. eexists. split; [vm_compute; reflexivity | vm_compute; reflexivity]. Qed.

Definition pinned_pc (p : ipc) : bool :=
  match p with IAcqSLp | IDelp | IRelSLp | IUnlockP => true | _ => false end.
Definition nopinned (st : state) : Prop := forall e, pinned_pc (e_idle (E st e)) = false.

Lemma nopinned_step : forall st t st', inv st -> nopinned st -> step true st t = Some st' -> nopinned st'.
Proof.
  intros st t st' Hinv Hnp H.
  destruct (step_trans _ _ _ _ Hinv H) as [Htr | (n & d & -> & _ & _ & _ & _ & ->)].
  - unfold nopinned. rows Htr; first [ exact Hnp |
      eapply (E_point (fun x => pinned_pc (e_idle x) = false)); [reflexivity | assumption | exact Hnp |];
      simpl; rewrite ?sig_idle; try reflexivity; try discriminate; try apply Hnp;
      try (specialize (Hnp e0); rewrite HI in Hnp; discriminate) ].
    specialize (Hnp e). destruct (e_idle (E st e)); auto.
  - intros e. unfold load, E. simpl. rewrite nth_app_new. destruct (e =? length (ents st)); [reflexivity | apply Hnp].
Qed.

Lemma nopinned_reachable : forall st, reachable true st -> nopinned st.
Proof.
  intros st (nd & specs & sched & Hok & Hex).
  assert (Hi : inv (init nd specs) /\ nopinned (init nd specs)).
  { split; [apply inv_init; auto | intros [|e]; reflexivity]. }
  clear Hok. induction Hex; [tauto|]. apply IHHex. destruct Hi. split; [eapply inv_step | eapply nopinned_step]; eauto.
Qed.

Lemma reader_enabled : forall fixed st n e, inv st -> In n (e_rd (E st e)) -> step fixed st (TC n) <> None.
Proof.
  intros fixed st n e Hinv Hin. apply (i_rd _ Hinv) in Hin.
  simpl. destruct (T st n) as [d p|p]; try destruct p; simpl in *; try discriminate.
  destruct (e_open (E st e0)); discriminate.
Qed.

Lemma readers_progress : forall fixed st e, inv st -> is_nil (e_rd (E st e)) = false ->
  exists t, step fixed st t <> None.
Proof.
  intros fixed st e Hinv Hn. destruct (e_rd (E st e)) as [|n r] eqn:Hr; try discriminate.
  exists (TC n). eapply reader_enabled; eauto. rewrite Hr. left; auto.
Qed.

Lemma writer_progress : forall st e t b, inv st -> nopinned st -> e_w (E st e) = Some (t, b) ->
  exists t', step true st t' <> None.
Proof.
  intros st e t b Hinv Hnp Hw. apply (i_w _ Hinv) in Hw.
  destruct (is_nil (e_rd (E st e))) eqn:Hn; [|eapply readers_progress; eauto].
  destruct t as [n|e']; simpl in Hw.
  - exists (TC n). simpl. destruct (T st n) as [d p|p]; try destruct p; simpl in Hw; try discriminate;
      injection Hw as -> _; simpl; rewrite ?Hn; try destruct (e_open (E st e)); discriminate.
  - destruct Hw as [-> Hw]. pose proof (Hnp e) as Hp. exists (TI e). simpl. unfold step_idle. unfold iw_ent in Hw.
    destruct (e_idle (E st e)); simpl in Hw, Hp; try discriminate;
      rewrite ?Hn; try destruct (e_open (E st e)); discriminate.
Qed.

(* threads whose next instruction is shardLock.Lock() *)
Definition acq_sl (st : state) (t : tid) : bool :=
  match t with
  | TC n => match T st n with CReq _ RAcqSL | CDel DAcqSL => true | _ => false end
  | TI e => match e_idle (E st e) with IAcqSL | IAcqSLp => true | _ => false end
  end.

(* what a thread that cannot move waits for *)
Lemma blocked : forall fixed st t, step fixed st t = None -> finished st t = false ->
  acq_sl st t = true /\ is_none (sl st) = false \/
  (exists e, is_none (e_w (E st e)) = false) \/ (exists e, is_nil (e_rd (E st e)) = false).
Proof.
  intros fixed st [n|e] Hs Hf; simpl in *; [destruct (T st n) as [d p|p]; destruct p | unfold step_idle in Hs; destruct (e_idle (E st e))];
    simpl in *; try discriminate;
    repeat match type of Hs with
           | context [if ?b then _ else _] => destruct b eqn:?
           | context [match ?o with Some _ => _ | None => _ end] => destruct o
           | context [match ?l with [] => _ | _ :: _ => _ end] => destruct l
           end; try discriminate; eauto.
Qed.

Lemma thread_progress : forall st t, inv st -> nopinned st -> finished st t = false ->
  (sl st = None \/ acq_sl st t = false) -> exists t', step true st t' <> None.
Proof.
  intros st t Hinv Hnp Hf Hsl. destruct (step true st t) eqn:Hs; [exists t; congruence|].
  destruct (blocked _ _ _ Hs Hf) as [[Ha Hn]|[[e He]|[e He]]].
  - destruct Hsl as [Hsl|Hsl]; [rewrite Hsl in Hn; discriminate | congruence].
  - destruct (e_w (E st e)) as [[w b]|] eqn:Hw; [eapply writer_progress; eauto | discriminate].
  - eapply readers_progress; eauto.
Qed.

Lemma holder_not_acq : forall st t, holds_sl st t -> finished st t = false /\ acq_sl st t = false.
Proof.
  intros st [n|e] H; simpl in *.
  - destruct (T st n) as [d p|p]; try destruct p; simpl in *; try discriminate; auto.
  - unfold isl_ent in H. destruct (e_idle (E st e)); simpl in *; try discriminate; auto.
Qed.

Lemma progress : forall st, reachable true st -> unfinished st -> exists t, enabled true st t.
Proof.
  intros st Hr [t0 Hf]. pose proof (inv_reachable _ _ Hr) as Hinv.
  pose proof (nopinned_reachable _ Hr) as Hnp. unfold enabled.
  destruct (sl st) as [h|] eqn:Hsl.
  - (* the holder of shardLock is not waiting for it *)
    apply (i_sl _ Hinv) in Hsl. apply holder_not_acq in Hsl. destruct Hsl. eapply thread_progress; eauto.
  - eapply thread_progress; eauto.
Qed.

(* a request that got an entry whose shard is closed returns the clean error *)

Definition stale_pc (e : nat) (p : rpc) : bool :=
  match p with
  | RRLock e' | RNil e' => e' =? e
  | RRUnlock e' false => e' =? e
  | RDone RClosed => true
  | _ => false
  end.

Definition stale_at (st : state) (n d e : nat) : Prop :=
  (exists p, T st n = CReq d p /\ stale_pc e p = true) /\ e_open (E st e) = false /\ e < length (ents st).

Lemma stale_step : forall fixed st t st' n d e, inv st -> stale_at st n d e ->
  step fixed st t = Some st' -> stale_at st' n d e.
Proof.
  intros fixed st t st' n d e Hinv ((q & Hp & Hs) & Hcl & Hlt) H.
  destruct (step_trans _ _ _ _ Hinv H) as [Htr | (n1 & d1 & -> & HT & Hn1 & _ & _ & ->)].
  - (* a closed shard stays closed *)
    split; [|split].
    2: { rows Htr; try exact Hcl; upd_E st; split_eqb; simpl; rewrite ?sig_open; auto. }
    2: { rows Htr; simpl; rewrite ?upd_length; exact Hlt. }
    rows Htr; try (exists q; split; [exact Hp | exact Hs]); upd_T st;
      (destruct (Nat.eqb_spec n n0) as [->|_]; [|eauto]); rewrite HT in Hp; try discriminate;
      injection Hp as <- <-; simpl in Hs; try discriminate; eexists; (split; [reflexivity|]); simpl; auto.
    + apply Nat.eqb_eq in Hs. congruence.
    + destruct ok; [discriminate | reflexivity].
  - repeat split.
    + exists q. split; [|exact Hs]. unfold load. rewrite (T_upd st _ n1 _ n) by (reflexivity || assumption).
      destruct (Nat.eqb_spec n n1) as [->|_]; [|exact Hp]. rewrite HT in Hp. injection Hp as <- <-. discriminate.
    + unfold load, E. simpl. rewrite nth_app_new. destruct (Nat.eqb_spec e (length (ents st))); [lia | exact Hcl].
    + unfold load. simpl. rewrite app_length. lia.
Qed.

Lemma stale_run : forall fixed sched st n d e, inv st -> stale_at st n d e ->
  stale_at (run fixed sched st) n d e.
Proof.
  induction sched; simpl; intros st n d e Hi Hs; auto.
  destruct (step fixed st a) eqn:Hst; auto.
  apply IHsched; [eapply inv_step | eapply stale_step]; eauto.
Qed.

Lemma stale_entry_clean_error : forall fixed st n d e sched,
  reachable fixed st -> T st n = CReq d (RRLock e) -> e_open (E st e) = false ->
  let st' := run fixed sched st in
  (exists p, T st' n = CReq d p /\ stale_pc e p = true) /\
  (forall e', T st' n <> CReq d (RBegin e') /\ T st' n <> CReq d (REnd e')) /\
  (forall r, T st' n = CReq d (RDone r) -> r = RClosed).
Proof.
  intros fixed st n d e sched Hr HT Ho st'.
  pose proof (inv_reachable _ _ Hr) as Hi.
  assert (Hs : stale_at st n d e).
  { repeat split; auto.
    - exists (RRLock e). split; auto. simpl. apply Nat.eqb_refl.
    - apply (i_pc_ent _ Hi n). rewrite HT. reflexivity. }
  destruct (stale_run fixed sched _ _ _ _ Hi Hs) as [(p & Hp & Hsp) _]. fold st' in Hp.
  split; [eauto|]. rewrite Hp. split.
  - split; intros [= ->]; discriminate.
  - intros r [= ->]. destruct r; auto; discriminate.
Qed.

Lemma finished_idle : forall c, cfinished c = true ->
  sl_pc c = false /\ w_pc c = None /\ rd_pc c = None /\ forall e d, del_mid c e d = false.
Proof. intros [d p|p]; destruct p; simpl; try discriminate; auto. Qed.

(* nothing is held and every mapped entry is open once all clients returned and no routine is unloading *)
Lemma quiet_facts : forall st, inv st -> clients_done st -> idle_quiet st ->
  sl st = None /\ (forall e, e_w (E st e) = None /\ e_rd (E st e) = []) /\
  (forall d e, d_store (D st d) = Some e -> e < length (ents st) /\ e_open (E st e) = true).
Proof.
  intros st Hinv Hc Hq.
  assert (Hc' : forall n, sl_pc (T st n) = false /\ w_pc (T st n) = None /\ rd_pc (T st n) = None /\
                          forall e d, del_mid (T st n) e d = false) by (intros; apply finished_idle, Hc).
  assert (Hq' : forall e, isl_ent (E st e) = false /\ iw_ent (E st e) = None /\
                          closing (E st e) = false) by (intros e; unfold isl_ent, iw_ent, closing; destruct (Hq e) as [-> | ->]; auto).
  repeat split.
  - destruct (sl st) as [[n|e]|] eqn:Hs; auto; apply (i_sl _ Hinv) in Hs; simpl in Hs.
    + destruct (Hc' n) as (Hn & _). congruence.
    + destruct (Hq' e) as (He & _). congruence.
  - destruct (e_w (E st e)) as [[[n|e'] b]|] eqn:Hw; auto; apply (i_w _ Hinv) in Hw; simpl in Hw.
    + destruct (Hc' n) as (_ & Hn & _). congruence.
    + destruct Hw as [-> Hw]. destruct (Hq' e) as (_ & He & _). congruence.
  - destruct (e_rd (E st e)) as [|n r] eqn:Hr; auto.
    assert (Hin : In n (e_rd (E st e))) by (rewrite Hr; left; auto).
    apply (i_rd _ Hinv) in Hin. destruct (Hc' n) as (_ & _ & Hn & _). congruence.
  - apply (i_store _ Hinv _ _ H).
  - destruct (e_open (E st e)) eqn:Ho; auto.
    destruct (i_unloading _ Hinv _ _ H Ho) as [Hcs|[m Hm]].
    + destruct (Hq' e) as (_ & _ & He). congruence.
    + destruct (Hc' m) as (_ & _ & _ & Hn). congruence.
Qed.

Lemma creq_step : forall fixed st n d pc sh pc', T st n = CReq d pc -> creq st n d pc sh pc' ->
  step fixed st (TC n) = Some (set_thr sh n (CReq d pc')).
Proof.
  intros fixed st n d pc sh pc' HT Hq. simpl. rewrite HT.
  destruct Hq; simpl; rewrite ?H; simpl; reflexivity.
Qed.

Ltac len := simpl; rewrite ?upd_length; reflexivity.

Lemma load_step : forall fixed st n d, T st n = CReq d RLoad -> d_store (D st d) = None ->
  step fixed st (TC n) = Some (load st n d).
Proof. intros fixed st n d HT Hs. simpl. rewrite HT. simpl. rewrite Hs. reflexivity. Qed.

(* from RRelSL on a request runs alone through an entry that is open and free *)
Lemma solo_tail : forall st n d e, n < length (thr st) -> T st n = CReq d (RRelSL e) -> e < length (ents st) ->
  e_open (E st e) = true -> (forall e', e_w (E st e') = None /\ e_rd (E st e') = []) ->
  exists st', exec true st (repeat (TC n) 6) st' /\ T st' n = CReq d (RDone ROk) /\ locks_free st'.
Proof.
  intros st n d e Hn HT He Ho Hfree. destruct (Hfree e) as [Hw Hr]. simpl repeat.
  (* the thread stands where its last step has put it *)
  assert (Hat : forall sh c, length (thr sh) = length (thr st) -> T (set_thr sh n c) n = c).
  { intros sh c Hl. rewrite T_set_thr, Nat.eqb_refl by congruence. reflexivity. }
  assert (Hgo : forall s pc sh pc' l s', T s n = CReq d pc -> creq s n d pc sh pc' ->
            exec true (set_thr sh n (CReq d pc')) l s' -> exec true s (TC n :: l) s').
  { intros. eapply exec_cons; [eapply creq_step|]; eauto. }
  eexists. split; [|split].
  - eapply Hgo; [exact HT | apply q_rel |].
    eapply Hgo; [apply Hat; len | apply q_rlock; exact Hw |].
    eapply Hgo; [apply Hat; len | apply q_open |].
    { rewrite E_set_thr, E_set_ent, Nat.eqb_refl by exact He. exact Ho. }
    eapply Hgo; [apply Hat; len | apply q_begin |].
    eapply Hgo; [apply Hat; len | apply q_end |].
    eapply Hgo; [apply Hat; len | apply q_runlock |].
    apply exec_nil.
  - apply Hat. len.
  - split; [reflexivity|]. intros e'.
    rewrite !E_set_thr, E_set_ent by (rewrite !len_ents_set_thr, len_ents_set_ent; exact He).
    destruct (Nat.eqb_spec e' e) as [->|Hne]; simpl.
    + rewrite ?E_set_thr, E_set_ent, Nat.eqb_refl by exact He. simpl. rewrite Nat.eqb_refl. simpl.
      change (e_w (E st e) = None /\ remove_nat n (e_rd (E st e)) = []). rewrite Hr. auto.
    + rewrite ?E_set_thr, E_set_ent by exact He. destruct (Nat.eqb_spec e' e); [contradiction | apply Hfree].
Qed.

Lemma solo_request : forall st n d,
  n < length (thr st) -> T st n = CReq d RAcqSL -> d < length (dirs st) -> sl st = None ->
  (forall e, e_w (E st e) = None /\ e_rd (E st e) = []) ->
  (forall e, d_store (D st d) = Some e -> e < length (ents st) /\ e_open (E st e) = true) ->
  exists st', exec true st (repeat (TC n) 8) st' /\ T st' n = CReq d (RDone ROk) /\ locks_free st'.
Proof.
  intros st n d Hn HT Hd Hsl Hfree Hopen.
  set (s1 := set_thr (set_sl st (Some (TC n))) n (CReq d RLoad)).
  assert (H1 : T s1 n = CReq d RLoad) by (unfold s1; rewrite T_set_thr, Nat.eqb_refl by exact Hn; reflexivity).
  assert (Hs1 : step true st (TC n) = Some s1) by (apply (creq_step true st n d RAcqSL), q_acq; auto).
  enough (Hs2 : exists s2 e, step true s1 (TC n) = Some s2 /\ n < length (thr s2) /\ T s2 n = CReq d (RRelSL e) /\
                             e < length (ents s2) /\ e_open (E s2 e) = true /\
                             forall e', e_w (E s2 e') = None /\ e_rd (E s2 e') = []).
  { destruct Hs2 as (s2 & e & Hs2 & Hn2 & HT2 & He2 & Ho2 & Hf2).
    destruct (solo_tail s2 n d e Hn2 HT2 He2 Ho2 Hf2) as (st' & Hex & Hst').
    exists st'. split; [|exact Hst']. eapply exec_cons; [exact Hs1|]. eapply exec_cons; [exact Hs2 | exact Hex]. }
  assert (Hn1 : n < length (thr s1)) by (unfold s1; simpl; rewrite upd_length; exact Hn).
  destruct (d_store (D st d)) as [e|] eqn:Hs.
  - destruct (Hopen e eq_refl) as [He Ho]. exists (set_thr s1 n (CReq d (RRelSL e))), e.
    split; [apply (creq_step true s1 n d RLoad); [exact H1 | apply q_reuse; exact Hs] |].
    split; [rewrite len_thr_set_thr; exact Hn1|]. split; [rewrite T_set_thr, Nat.eqb_refl by exact Hn1; reflexivity|].
    auto.
  - exists (load s1 n d), (length (ents st)).
    assert (HE : forall e', E (load s1 n d) e' = if e' =? length (ents st) then mkEntry d n true None [] IWait else E st e')
      by (intros; apply nth_app_new).
    split; [apply load_step; [exact H1 | exact Hs] |].
    split; [unfold load; rewrite len_thr_set_thr; exact Hn1|].
    split; [unfold load; rewrite T_set_thr, Nat.eqb_refl by exact Hn1; reflexivity|].
    split; [unfold load; simpl; rewrite app_length; simpl; lia|].
    split; [rewrite HE, Nat.eqb_refl; reflexivity|].
    intros e'. rewrite HE. destruct (e' =? length (ents st)); [auto | apply Hfree].
Qed.

Lemma reload_after : forall st d, reachable true st -> clients_done st -> idle_quiet st -> d < length (dirs st) ->
  let n := length (thr st) in
  exists st', exec true (add_req st d) (repeat (TC n) 8) st' /\ T st' n = CReq d (RDone ROk) /\ locks_free st'.
Proof.
  intros st d Hr Hc Hq Hd n.
  destruct (quiet_facts _ (inv_reachable _ _ Hr) Hc Hq) as [Hsl [Hfree Hopen]].
  apply solo_request; auto.
  - unfold add_req. simpl. rewrite app_length. simpl. lia.
  - unfold T, add_req. simpl. rewrite nth_app_new. unfold n. rewrite Nat.eqb_refl. reflexivity.
  - intros e Hs. apply (Hopen d e Hs).
Qed.
