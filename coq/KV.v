(* KV.v -- ordered key scans of a bucket: the bbolt cursor loops and the
   memstore sort-and-filter loops of diskstore/{bbolt,memstore}.go, and their
   specification as a filter on the key order. *)
From Coq Require Import List NArith Lia Bool Sorted.
From Semadb Require Import Bytes.
Import ListNotations.
Open Scope N_scope.

Definition klt (a b : bytes) : Prop := lex_lt a b = true.
Definition ksorted (l : list bytes) : Prop := StronglySorted klt l.

Definition start_ok (s : option bytes) (incl : bool) (k : bytes) : bool :=
  match s with
  | None => true
  | Some st => if incl then lex_le st k else lex_lt st k
  end.
Definition end_ok (e : option bytes) (incl : bool) (k : bytes) : bool :=
  match e with
  | None => true
  | Some en => if incl then lex_le k en else lex_lt k en
  end.
Definition in_range (s e : option bytes) (incl : bool) (k : bytes) : bool :=
  start_ok s incl k && end_ok e incl k.

(* bbolt: Cursor.Seek positions at the first key >= start *)
Fixpoint seek (st : bytes) (l : list bytes) : list bytes :=
  match l with
  | [] => []
  | k :: r => if lex_lt k st then seek st r else l
  end.

Fixpoint take_while (f : bytes -> bool) (l : list bytes) : list bytes :=
  match l with
  | [] => []
  | k :: r => if f k then k :: take_while f r else []
  end.

(* diskstore/bbolt.go RangeScan *)
Definition bbolt_range (l : list bytes) (s e : option bytes) (incl : bool) : list bytes :=
  let l1 := match s with
            | None => l
            | Some st =>
                match seek st l with
                | k :: r => if negb incl && bytes_eqb k st then r else k :: r
                | [] => []
                end
            end in
  take_while (end_ok e incl) l1.

(* diskstore/memstore.go RangeScan, on the sorted copy: continue / break *)
Fixpoint mem_range (l : list bytes) (s e : option bytes) (incl : bool) : list bytes :=
  match l with
  | [] => []
  | k :: r =>
      if negb (start_ok s incl k) then mem_range r s e incl
      else if negb (end_ok e incl k) then []
      else k :: mem_range r s e incl
  end.

(* diskstore/bbolt.go PrefixScan *)
Definition bbolt_prefix (l : list bytes) (p : bytes) : list bytes :=
  take_while (is_prefix p) (seek p l).
(* memstore PrefixScan is literally a filter (order unspecified) *)
Definition mem_prefix (l : list bytes) (p : bytes) : list bytes := filter (is_prefix p) l.

Lemma klt_trans a b c : klt a b -> klt b c -> klt a c.
Proof. apply lex_lt_trans. Qed.

Lemma lex_le_lt_trans a b c : lex_le a b = true -> lex_lt b c = true -> lex_lt a c = true.
Proof.
  intros H1 H2. apply lex_le_lt_or_eq in H1. destruct H1 as [H1| ->]; [|exact H2].
  eapply lex_lt_trans; eauto.
Qed.

Lemma lex_lt_le_trans a b c : lex_lt a b = true -> lex_le b c = true -> lex_lt a c = true.
Proof.
  intros H1 H2. apply lex_le_lt_or_eq in H2. destruct H2 as [H2| <-]; [|exact H1].
  eapply lex_lt_trans; eauto.
Qed.

Lemma lex_lt_le a b : lex_lt a b = true -> lex_le a b = true.
Proof. intros H. apply lex_le_lt_or_eq. now left. Qed.

Lemma lex_le_trans a b c : lex_le a b = true -> lex_le b c = true -> lex_le a c = true.
Proof.
  intros H1 H2. apply lex_le_lt_or_eq in H2. destruct H2 as [H2| <-]; [|exact H1].
  eapply lex_lt_le, lex_le_lt_trans; eauto.
Qed.

Lemma lex_lt_asym a b : lex_lt a b = true -> lex_lt b a = false.
Proof.
  unfold lex_lt. rewrite (lex_compare_antisym a b). destruct (lex_compare a b); cbn; congruence.
Qed.

Lemma filter_all {A} (f : A -> bool) l : Forall (fun x => f x = true) l -> filter f l = l.
Proof. induction 1 as [|x l Hx _ IH]; cbn; [reflexivity|]. now rewrite Hx, IH. Qed.

Lemma filter_none {A} (f : A -> bool) l : Forall (fun x => f x = false) l -> filter f l = [].
Proof. induction 1 as [|x l Hx _ IH]; cbn; [reflexivity|]. now rewrite Hx. Qed.

Lemma filter_filter {A} (f g : A -> bool) l : filter f (filter g l) = filter (fun x => g x && f x) l.
Proof.
  induction l as [|x l IH]; cbn; [reflexivity|].
  destruct (g x); cbn; [destruct (f x)|]; now rewrite IH.
Qed.

Lemma ksorted_inv k r : ksorted (k :: r) -> ksorted r /\ Forall (klt k) r.
Proof. intros H. inversion H; subst. auto. Qed.

Lemma ksorted_NoDup l : ksorted l -> NoDup l.
Proof.
  induction 1 as [|k r Hs IH Hk]; constructor; [|exact IH].
  intros Hin. rewrite Forall_forall in Hk. specialize (Hk _ Hin). unfold klt in Hk.
  now rewrite lex_lt_irrefl in Hk.
Qed.

Lemma ksorted_filter f l : ksorted l -> ksorted (filter f l).
Proof.
  induction 1 as [|k r Hs IH Hk]; cbn; [constructor|].
  destruct (f k); [|exact IH]. constructor; [exact IH|].
  apply Forall_forall. intros x Hx. apply filter_In in Hx.
  rewrite Forall_forall in Hk. now apply Hk.
Qed.

(* A cursor loop that stops at the first failing key has seen every passing
   key when, in key order, a failure is inherited by all larger keys. *)
Lemma take_while_filter f l : ksorted l ->
  (forall k x, In k l -> f k = false -> klt k x -> f x = false) ->
  take_while f l = filter f l.
Proof.
  induction 1 as [|k r Hs IH Hk]; intros Hf; cbn [take_while filter]; [reflexivity|].
  destruct (f k) eqn:E.
  - f_equal. apply IH. intros k' x Hin. apply Hf. now right.
  - symmetry. apply filter_none. eapply Forall_impl; [|exact Hk].
    intros x. apply Hf; [now left|exact E].
Qed.

Lemma end_ok_past e incl k x : end_ok e incl k = false -> klt k x -> end_ok e incl x = false.
Proof.
  unfold klt. destruct e as [en|]; cbn; [|discriminate]. intros E Hx. destruct incl.
  - rewrite lex_le_not_lt in *. apply negb_false_iff in E. apply negb_false_iff.
    eapply lex_lt_trans; eauto.
  - destruct (lex_lt x en) eqn:F; [|reflexivity].
    now rewrite (lex_lt_trans _ _ _ Hx F) in E.
Qed.

Lemma take_while_filter_end e incl l : ksorted l ->
  take_while (end_ok e incl) l = filter (end_ok e incl) l.
Proof. intros Hs. apply take_while_filter; [exact Hs|]. intros k x _. apply end_ok_past. Qed.

Lemma seek_filter st l : ksorted l -> seek st l = filter (fun k => lex_le st k) l.
Proof.
  induction 1 as [|k r Hs IH Hk]; cbn [seek filter]; [reflexivity|].
  rewrite (lex_le_not_lt st k).
  destruct (lex_lt k st) eqn:E; cbn [negb]; [exact IH|].
  f_equal. symmetry. apply filter_all.
  eapply Forall_impl; [|exact Hk]. intros x Hx.
  (* st <= k < x *)
  apply lex_lt_le, lex_le_lt_trans with k; [|exact Hx]. now rewrite lex_le_not_lt, E.
Qed.

(* the opening of bbolt_range: where the cursor stands before the loop *)
Lemma start_filter st incl l : ksorted l ->
  match seek st l with
  | k :: r => if negb incl && bytes_eqb k st then r else k :: r
  | [] => []
  end = filter (start_ok (Some st) incl) l.
Proof.
  induction 1 as [|k r Hs IH Hk]; cbn [seek filter start_ok]; [reflexivity|].
  destruct (lex_lt k st) eqn:E.
  - rewrite IH, lex_le_not_lt, E, (lex_lt_asym _ _ E). now destruct incl.
  - (* k is the first key >= st, so every later key is > st *)
    assert (Hle : lex_le st k = true) by now rewrite lex_le_not_lt, E.
    rewrite (filter_all _ r).
    2:{ eapply Forall_impl; [|exact Hk]. intros x Hx.
        pose proof (lex_le_lt_trans _ _ _ Hle Hx) as Hlt.
        destruct incl; [now apply lex_lt_le|exact Hlt]. }
    destruct incl; cbn [negb andb]; [now rewrite Hle|].
    apply lex_le_lt_or_eq in Hle. destruct (bytes_eqb k st) eqn:Eq.
    + apply bytes_eqb_eq in Eq. subst k. now rewrite lex_lt_irrefl.
    + destruct Hle as [->|Hle]; [reflexivity|].
      subst k. now rewrite (proj2 (bytes_eqb_eq st st) eq_refl) in Eq.
Qed.

Theorem bbolt_range_spec l s e incl : ksorted l ->
  bbolt_range l s e incl = filter (in_range s e incl) l.
Proof.
  intros Hs. unfold bbolt_range, in_range.
  destruct s as [st|].
  - rewrite (start_filter st incl l Hs).
    rewrite take_while_filter_end by (now apply ksorted_filter).
    apply filter_filter.
  - now apply take_while_filter_end.
Qed.

Theorem mem_range_spec l s e incl : ksorted l ->
  mem_range l s e incl = filter (in_range s e incl) l.
Proof.
  induction 1 as [|k r Hs IH Hk]; cbn [mem_range filter]; [reflexivity|].
  unfold in_range at 1.
  destruct (start_ok s incl k); cbn [negb andb]; [|exact IH].
  destruct (end_ok e incl k) eqn:Ee; cbn [negb]; [now rewrite IH|].
  symmetry. apply filter_none.
  eapply Forall_impl; [|exact Hk]. intros x Hx. unfold in_range.
  now rewrite (end_ok_past _ _ _ _ Ee Hx), andb_false_r.
Qed.

Corollary backends_agree_range l s e incl : ksorted l ->
  bbolt_range l s e incl = mem_range l s e incl.
Proof. intros. now rewrite bbolt_range_spec, mem_range_spec. Qed.

Lemma prefix_ge p k : is_prefix p k = true -> lex_le p k = true.
Proof.
  revert k; induction p as [|x p IH]; intros [|y k] H; try reflexivity; [discriminate|].
  cbn in H. apply andb_true_iff in H. destruct H as [H1 H2].
  apply N.eqb_eq in H1. subst. unfold lex_le. cbn. rewrite N.compare_refl.
  exact (IH _ H2).
Qed.

(* once a key >= p lacks the prefix, every larger key lacks it too *)
Lemma prefix_gap p k1 k2 :
  lex_le p k1 = true -> is_prefix p k1 = false -> lex_lt k1 k2 = true -> is_prefix p k2 = false.
Proof.
  revert k1 k2; induction p as [|x p IH]; intros k1 k2 H1 H2 H3; [discriminate|].
  destruct k1 as [|y1 k1]; [discriminate|].
  destruct k2 as [|y2 k2]; [reflexivity|].
  cbn [is_prefix] in *. unfold lex_le in H1. unfold lex_lt in H3. cbn [lex_compare] in *.
  destruct (N.compare_spec x y1) as [E1|L1|G1]; try discriminate.
  - subst y1. rewrite N.eqb_refl in H2. cbn [andb] in H2.
    destruct (N.compare_spec x y2) as [E2|L2|G2]; try discriminate.
    + subst y2. rewrite N.eqb_refl. cbn [andb]. eapply IH; eauto.
    + replace (x =? y2) with false by (symmetry; apply N.eqb_neq; lia). reflexivity.
  - destruct (N.compare_spec y1 y2) as [E2|L2|G2]; try discriminate;
      replace (x =? y2) with false by (symmetry; apply N.eqb_neq; lia); reflexivity.
Qed.

Theorem bbolt_prefix_spec l p : ksorted l -> bbolt_prefix l p = filter (is_prefix p) l.
Proof.
  intros Hs. unfold bbolt_prefix. rewrite (seek_filter p l Hs), take_while_filter.
  - rewrite filter_filter. apply filter_ext. intros a.
    destruct (is_prefix p a) eqn:F; [now rewrite (prefix_ge _ _ F)|apply andb_false_r].
  - now apply ksorted_filter.
  - intros k x Hk. apply filter_In in Hk. apply prefix_gap, Hk.
Qed.

(* an order-embedding encoder turns value ranges into key ranges *)
Section RangeExact.
  Variable V : Type.
  Variable enc : V -> bytes.
  Variable vlt : V -> V -> bool.
  Hypothesis enc_lt : forall a b, lex_lt (enc a) (enc b) = vlt a b.

  Definition v_in_range (lo hi : option V) (incl : bool) (v : V) : bool :=
    match lo with None => true | Some a => if incl then negb (vlt v a) else vlt a v end &&
    match hi with None => true | Some b => if incl then negb (vlt b v) else vlt v b end.

  Lemma in_range_enc lo hi incl v :
    in_range (option_map enc lo) (option_map enc hi) incl (enc v) = v_in_range lo hi incl v.
  Proof.
    unfold in_range, v_in_range, start_ok, end_ok.
    destruct lo as [a|], hi as [b|]; cbn [option_map]; destruct incl;
      rewrite ?lex_le_not_lt, ?enc_lt; reflexivity.
  Qed.

  Theorem range_scan_exact (vals : list V) lo hi incl :
    ksorted (map enc vals) ->
    bbolt_range (map enc vals) (option_map enc lo) (option_map enc hi) incl
    = map enc (filter (v_in_range lo hi incl) vals).
  Proof.
    intros Hs. rewrite bbolt_range_spec by exact Hs. clear Hs.
    induction vals as [|v vals IH]; cbn [map filter]; [reflexivity|].
    rewrite in_range_enc. destruct (v_in_range lo hi incl v); cbn [map]; now rewrite IH.
  Qed.
End RangeExact.
