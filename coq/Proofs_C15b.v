(* Proofs_C15b.v -- the checker of stored ranges (Model_C15.live_ranges_b) accepts what an assignment
   stores: when [out] is a contiguous ordered partition over distinct shards (partition_spec), the
   position lists model_stored out 0 .. model_stored out (nshards-1) pass live_ranges_b. *)
From Coq Require Import List NArith ZArith Bool Arith Sorted Lia.
From Coq Require Import ZifyBool ZifyN ZifyNat.
From Semadb Require Import Model_C15 Proofs_C15.
Import ListNotations.

Definition rng (a : assignment) : list N := map N.of_nat (seq (a_start a) (a_end a - a_start a)).

Lemma model_stored_cons : forall a out i,
  model_stored (a :: out) i = (if (a_idx a =? i)%nat then rng a else []) ++ model_stored out i.
Proof. intros. reflexivity. Qed.

Lemma model_stored_above : forall out i, incr_from (S i) (map a_idx out) = true -> model_stored out i = [].
Proof.
  induction out as [|a out IH]; intros i H; [reflexivity|].
  apply andb_true_iff in H as [Ha H]. apply Nat.leb_le in Ha.
  rewrite model_stored_cons. destruct (Nat.eqb_spec (a_idx a) i); [lia|].
  apply IH, (incr_from_weaken _ _ (S (a_idx a))); [lia|exact H].
Qed.

Lemma contig_from_seq : forall len s, contig_from (N.of_nat s) (map N.of_nat (seq s len)) = true.
Proof.
  induction len as [|len IH]; intros s; [reflexivity|].
  cbn [seq map contig_from]. rewrite N.eqb_refl. cbn [andb].
  replace (N.of_nat s + 1)%N with (N.of_nat (S s)) by lia. apply IH.
Qed.

Lemma contig_b_seq : forall s len, contig_b (map N.of_nat (seq s len)) = true.
Proof. intros s [|len]; [reflexivity|]. apply (contig_from_seq (S len) s). Qed.

(* shards lo .. lo+m-1 each hold one range or nothing, and in shard order they hold the ranges of the
   assignment in assignment order *)
Lemma stored_in_order : forall m lo out,
  incr_from lo (map a_idx out) = true -> Forall (fun a => (a_idx a < lo + m)%nat) out ->
  forallb contig_b (map (model_stored out) (seq lo m)) = true /\
  concat (map (model_stored out) (seq lo m)) = concat (map rng out).
Proof.
  apply (shard_walk (fun lo m out =>
    forallb contig_b (map (model_stored out) (seq lo m)) = true /\
    concat (map (model_stored out) (seq lo m)) = concat (map rng out))).
  - split; reflexivity.
  - intros lo m out Hinc IH. cbn [seq map forallb concat]. rewrite (model_stored_above _ _ Hinc). exact IH.
  - intros lo m s e out Hinc [IH1 IH2]. cbn [seq map forallb concat].
    rewrite (map_ext_in _ (model_stored out)).
    + rewrite IH1, IH2, model_stored_cons, (model_stored_above _ _ Hinc), app_nil_r. cbn [a_idx fst].
      rewrite Nat.eqb_refl, andb_true_r. split; [apply contig_b_seq|reflexivity].
    + intros i Hi. apply in_seq in Hi. rewrite model_stored_cons. cbn [a_idx fst].
      destruct (Nat.eqb_spec lo i); [lia|reflexivity].
Qed.

Lemma concat_map_rng : forall out,
  concat (map rng out) = map N.of_nat (flat_map (fun a => seq (a_start a) (a_end a - a_start a)) out).
Proof.
  induction out as [|a out IH]; [reflexivity|].
  cbn [map concat flat_map]. rewrite map_app, IH. reflexivity.
Qed.

Lemma count_n_seq_out : forall len s i, (i < s)%nat -> count_n (N.of_nat i) (map N.of_nat (seq s len)) = O.
Proof.
  induction len as [|len IH]; intros s i H; [reflexivity|].
  cbn [seq map count_n]. rewrite IH by lia. destruct (N.eqb_spec (N.of_nat s) (N.of_nat i)); [lia|reflexivity].
Qed.

Lemma count_n_seq_in : forall len s i, (s <= i < s + len)%nat ->
  count_n (N.of_nat i) (map N.of_nat (seq s len)) = 1%nat.
Proof.
  induction len as [|len IH]; intros s i H; [lia|].
  cbn [seq map count_n]. destruct (N.eqb_spec (N.of_nat s) (N.of_nat i)).
  - rewrite count_n_seq_out by lia. reflexivity.
  - rewrite IH by lia. reflexivity.
Qed.

Lemma once_each_seq : forall n, once_each_b n (map N.of_nat (seq 0 n)) = true.
Proof.
  intros n. unfold once_each_b. rewrite map_length, seq_length, Nat.eqb_refl. cbn [andb].
  apply forallb_forall. intros i Hi. apply in_seq in Hi. rewrite count_n_seq_in by lia. reflexivity.
Qed.

Theorem live_checker_accepts_model : forall nshards n out,
  partition_spec nshards n out -> live_ranges_b n (map (model_stored out) (seq 0 nshards)) = true.
Proof.
  intros nshards n out (Hch & HS & Hlt). unfold live_ranges_b.
  destruct (stored_in_order nshards 0 out) as [-> ->]; [apply incr_from_0, HS|exact Hlt|].
  destruct (chain_flat _ _ _ Hch) as [Hflat _].
  rewrite concat_map_rng, Hflat, Nat.sub_0_r. apply once_each_seq.
Qed.
