(* Proofs_C11c.v -- C11: exclusion and coherence of the REPAIRED manager
   (safe = true), for well-formed programs (no With after Commit), along every
   schedule -- Release / eviction / pruning at any moment included. *)
From Coq Require Import List Arith Bool ZArith Lia PeanoNat.
From Semadb Require Import Model_C11 Proofs_C11.
Import ListNotations.

Record InvW (st : state) : Prop := {
  i_wf : forall t, wf_prog (prog (txs st t));
  i_dn : forall t, done (txs st t) = true -> prog (txs st t) = []
}.

Lemma wf_tl : forall p, wf_prog p -> wf_prog (tl p).
Proof. destruct p as [|[n ro oc|fl] r]; simpl; auto. intros ->. exact I. Qed.

Lemma step_W : forall fixed safe st t st', InvW st -> trans fixed safe st t (txs st t) st' -> InvW st'.
Proof.
  intros fixed safe st t st' W H.
  destruct H; constructor; simpl; try in_commit; intros t'; upd_at t'; simpl; try apply W.
  all: try (apply wf_tl, W).
  all: try (intros D; now rewrite (i_dn _ W _ D)).
  (* Commit is the last operation *)
  intros _. pose proof (i_wf _ W t) as X. rewrite Hpr in *. exact X.
Qed.

Lemma busy_not_done : forall st t, Inv0 st -> InvW st -> ph (txs st t) <> PIdle -> done (txs st t) = false.
Proof.
  intros st t I W Hp. destruct (done (txs st t)) eqn:Hd; auto.
  exfalso. apply (i_prog _ I t Hp). now apply (i_dn _ W).
Qed.
Lemma idle_with_not_done : forall st t n ro oc l, InvW st -> prog (txs st t) = OWith n ro oc :: l -> done (txs st t) = false.
Proof.
  intros st t n ro oc l W Hp. destruct (done (txs st t)) eqn:Hd; auto.
  rewrite (i_dn _ W t Hd) in Hp. discriminate.
Qed.

(* what exclusion rests on, for the repaired manager: an access without a read
   lock works on an element the transaction write-holds *)
Definition ph_okS (st : state) (t : tid) (T : tx) : Prop :=
  match ph T with
  | PScrap w e None => lookup (w_n w) (written T) = Some e
  | PReady w c | PIn w c | PErr w c =>
      c_sh c = true -> c_rl c = Some (c_e c) \/ holds_write st t (c_e c)
  | _ => True
  end.
Definition InvS (st : state) : Prop := forall t, ph_okS st t (txs st t).

Lemma step_S : forall fixed st s st', Inv0 st -> InvW st -> InvS st ->
  trans fixed true st s (txs st s) st' -> InvS st'.
Proof.
  intros fixed st s st' I W C H t. destruct (Nat.eq_dec t s) as [->|Ht].
  2: { rewrite (trans_txs _ _ _ _ _ _ H Ht). pose proof (C t) as P. unfold ph_okS, holds_write in *.
       destruct (trans_stable _ _ _ _ _ _ I H Ht) as [_ _ _ Sw _].
       destruct (ph (txs st t)); auto; intros Hs; destruct (P Hs) as [?|[A B]]; auto;
         destruct (Sw _ A) as [A' B']; rewrite A', B'; auto. }
  pose proof (C s) as P. pose proof (i_ph _ I s) as P0. unfold ph_okS, holds_write in *.
  cases H; rewrite upd_eq; simpl; rewrite Hph in P, P0; simpl in P0; auto; try discriminate.
  - (* create *) intros _. rewrite upd_eq. destruct (w_ro w); auto.
  - (* wlock *) now rewrite lookup_set_key, Nat.eqb_refl.
  - (* select: without a read lock the element is one of the written caches, which t write-holds *)
    intros _. destruct P0 as (_ & _ & _ & [->|[-> _]]); auto. right.
    apply (i_wlock _ I s (w_n w) e (lookup_In _ _ _ P)). apply busy_not_done; auto. rewrite Hph. discriminate.
  - (* cb_fail *) now rewrite upd_eq.
Qed.

Lemma init_W : forall progs, Forall wf_prog progs -> InvW (init progs).
Proof.
  intros progs Hwf. constructor; intros t; rewrite init_tx; destruct (nth_error progs t) eqn:E; simpl; auto; try discriminate.
  rewrite Forall_forall in Hwf. apply Hwf. eapply nth_error_In; eauto.
Qed.

Lemma init_S : forall progs, InvS (init progs).
Proof. intros progs t. unfold ph_okS. now rewrite init_ph. Qed.

Lemma run_safe : forall fixed limit ls st, Inv0 st -> InvW st /\ InvS st ->
  InvW (run fixed true limit ls st) /\ InvS (run fixed true limit ls st).
Proof.
  intros fixed limit. apply (run_invariant fixed true limit (fun s => InvW s /\ InvS s)).
  - intros st t st' I [W C] H. split; [eapply step_W|eapply step_S]; eauto.
  - intros st n I [W C] _. split; [constructor; apply W|exact C].
Qed.

Lemma excl_core : forall st t t' w c, Inv0 st -> InvS st ->
  holds_write st t (c_e c) -> ph (txs st t') = PIn w c -> t' = t.
Proof.
  intros st t t' w c I C [Hw Hh] Hp.
  pose proof (i_ph _ I t') as P. pose proof (C t') as P'. unfold ph_okS in P'. rewrite Hp in P, P'.
  destruct P as (_ & R & _ & Ho & _). destruct (c_sh c).
  - destruct (P' eq_refl) as [Hr|[Hw' _]]; [|congruence].
    destruct (i_held _ I _ Hh) as (He & _). specialize (R _ Hr). rewrite He in R. destruct R.
  - destruct (i_owner _ I _ _ (Ho eq_refl)); congruence.
Qed.

Lemma excl_of_inv : forall st, Inv0 st -> InvS st -> excl st.
Proof.
  intros st I C. repeat split.
  - intros t e [Hw Hh]. apply (i_held _ I _ Hh).
  - intros t t' e Hw (w & c & Hp & <-). eapply excl_core; eauto.
  - intros t t' e (w & c & Hp & <- & Hro) (w' & c' & Hp' & He).
    pose proof (i_ph _ I t) as P. pose proof (i_ph _ I t') as P'. pose proof (C t) as PS. unfold ph_okS in PS.
    rewrite Hp in P, PS. rewrite Hp' in P'.
    destruct P as (_ & _ & Hrl & Ho & _). destruct P' as ((_ & _ & Ho') & _). destruct (c_sh c).
    + destruct (PS eq_refl) as [Hr|Hw]; [rewrite (Hrl Hro) in Hr; discriminate|].
      rewrite <- He in Hw. eapply excl_core; eauto.
    + rewrite He, (Ho eq_refl) in Ho'. destruct Ho'; congruence.
  - intros t w c Hp Hs (n & Hl).
    pose proof (i_ph _ I t) as P. rewrite Hp in P. destruct P as (_ & _ & _ & Ho & _).
    destruct (i_map _ I _ _ Hl) as (_ & _ & Ho'). rewrite (Ho Hs) in Ho'. discriminate.
Qed.

(* Commit of one written element keeps coherence: the element gets the new version
   of its name; whatever else is registered under that name is scrapped *)
Lemma commit_one_coh : forall bad st n x,
  (forall k c, lookup k (mmap st) = Some c -> e_name (elems st c) = k) -> e_name (elems st x) = n ->
  coherent st -> coherent (commit_one true bad st (n, x)).
Proof.
  intros bad st n x Hreg Hn Co k e. unfold commit_one.
  destruct bad; [|destruct (lookup n (mmap st)) as [cur|] eqn:El; [destruct (Nat.eqb_spec cur x)|]]; simpl.
  all: intros Q; try apply sub_map_remove_if in Q; try apply sub_map_remove_key in Q.
  all: unfold upd; repeat match goal with |- context [Nat.eqb ?a ?b] => destruct (Nat.eqb_spec a b); subst end; simpl.
  all: try discriminate; try (now apply Co); try reflexivity.
  all: pose proof (Hreg _ _ Q); congruence.
Qed.

Lemma commit_all_coh : forall bad W st,
  (forall k c, lookup k (mmap st) = Some c -> e_name (elems st c) = k) ->
  (forall n x, In (n, x) W -> e_name (elems st x) = n) ->
  coherent st -> coherent (commit_all true bad st W).
Proof.
  induction W as [|[n x] W IH]; intros st Hreg HW Co; [exact Co|].
  pose proof (commit_one_eff true bad st n x) as C.
  apply (IH (commit_one true bad st (n, x))).
  - intros k c Q. rewrite (ce_name _ _ _ C). apply Hreg, (ce_map _ _ _ C), Q.
  - intros n' x' Hin. rewrite (ce_name _ _ _ C). apply HW. now right.
  - apply commit_one_coh; auto. apply HW. now left.
Qed.

Lemma step_coh : forall fixed st s st', Inv0 st -> coherent st ->
  trans fixed true st s (txs st s) st' -> coherent st'.
Proof.
  intros fixed st s st' I Co H n e.
  cases H; same I e_scrapped; same I e_writer; same I e_built; try apply Co; intros Q Qs Qw.
  8-9: exact (Co _ _ (Hsub _ _ Q) Qs Qw).
  2: { (* create: the new element reflects the committed version *)
       apply lookup_reg in Q. destruct Q as [(_ & <- & ->)|Q']; [now rewrite upd_eq|].
       destruct (i_map _ I _ _ Q'). rewrite upd_neq in * by lia. now apply Co. }
  2,5: destruct (i_map _ I _ _ Q); rewrite upd_neq by lia; now apply Co.
  2-4: revert Qs Qw; upd_at e; simpl; try discriminate; intros; now apply Co.
  (* Commit *)
  subst st1. revert n e Q Qs Qw. apply commit_all_coh; auto.
  - intros k c Q. now destruct (i_map _ I _ _ Q) as (_ & X & _).
  - intros n x Hin. now destruct (i_written _ I _ _ _ Hin) as (_ & X & _).
Qed.

Lemma run_coh : forall fixed limit ls st, Inv0 st -> coherent st -> coherent (run fixed true limit ls st).
Proof.
  intros fixed limit. apply run_invariant.
  - intros st t st' I Co H. eapply step_coh; eauto.
  - intros st n I Co _ n' e Q. apply Co, (sub_map_remove_key n), Q.
Qed.
