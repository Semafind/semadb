(* Proofs_C11b.v -- C11: scrapped elements are never selected again; locks are
   released (current version of With); progress under disjoint writers, which a
   single writing transaction satisfies. *)
From Coq Require Import List Arith Bool ZArith Lia PeanoNat.
From Semadb Require Import Model_C11 Proofs_C11.
Import ListNotations.

Lemma step_scrapped_mono : forall fixed safe st t st' e, Inv0 st -> trans fixed safe st t (txs st t) st' ->
  e_scrapped (elems st e) = true -> e_scrapped (elems st' e) = true.
Proof.
  intros fixed safe st t st' e I H. cases H; same I e_scrapped; auto.
  - apply (ce_scrapped _ _ _ Hc).
  - upd_at e; auto.
Qed.

Lemma run_scrapped_mono : forall fixed safe limit ls st e, Inv0 st ->
  e_scrapped (elems st e) = true -> e_scrapped (elems (run fixed safe limit ls st) e) = true.
Proof.
  intros fixed safe limit ls st e.
  apply (run_invariant fixed safe limit (fun s => e_scrapped (elems s e) = true)); auto.
  intros. eapply step_scrapped_mono; eauto.
Qed.

Lemma select_not_scrapped : forall fixed safe st t st' e, Inv0 st -> trans fixed safe st t (txs st t) st' ->
  selects st t st' e -> e_scrapped (elems st e) = false.
Proof.
  intros fixed safe st t st' e I H [_ (w' & c' & Hp & <-)]. revert Hp.
  cases H; rewrite upd_eq; simpl; try discriminate; intros [= <- <-]; simpl.
  1-3: now rewrite (i_fresh _ I _ (le_n _)).
  exact Hsc.
Qed.

(* what the current version adds to a phase; m is the manager map *)
Definition ph_ok1 (safe : bool) (m : list (name * eid)) (T : tx) : Prop :=
  match ph T with
  | PCreate w => lookup (w_n w) m = None /\ (done T = true -> w_ro w = true)
  | PLock w _ => safe = true -> done T = false -> has_key (w_n w) (written T) = false
  | PWait w _ => has_key (w_n w) (written T) = false /\ done T = false
  | _ => True
  end.

(* invariants of the CURRENT version of With (fixed = true) *)
Record Inv1 (safe : bool) (st : state) : Prop := {
  i_reg : forall n e t, lookup n (mmap st) = Some e -> e_writer (elems st e) = Some t ->
          e_wheld (elems st e) = true ->
          lookup n (written (txs st t)) = Some e /\ done (txs st t) = false;
  i_ph1 : forall t, ph_ok1 safe (mmap st) (txs st t)
}.

Lemma ph_ok1_sub : forall safe m m' T, sub_map m' m -> ph_ok1 safe m T -> ph_ok1 safe m' T.
Proof.
  unfold ph_ok1. intros safe m m' T S. destruct (ph T); auto. intros [A B]. split; [|exact B].
  destruct (lookup (w_n w) m') eqn:Q; [apply S in Q; congruence|reflexivity].
Qed.

Lemma trans_Inv1 : forall safe st t st', Inv0 st -> Inv1 safe st -> trans true safe st t (txs st t) st' ->
  Inv1 safe st'.
Proof.
  intros safe st t st' I J H. constructor.
  - (* i_reg *) intros n e t'.
    pose proof (i_ph _ I t) as P. pose proof (i_ph1 _ _ J t) as P1. unfold ph_ok1 in P1.
    cases H; rewrite Hph in P, P1; simpl in P, P1; same I e_writer; same I e_wheld; same I written; same I done;
      try apply (i_reg _ _ J); intros Q Q1 Q2.
    5-6: exact (i_reg _ _ J _ _ _ (Hsub _ _ Q) Q1 Q2).
    + (* commit: what is still write-held was not written by t *)
      apply (ce_map _ _ _ Hc) in Q. destruct (ce_lock _ _ _ I Hd Hc e) as [(_ & A & _)|(N & A & B)]; [congruence|].
      rewrite A in Q1. rewrite B in Q2. destruct (i_reg _ _ J _ _ _ Q Q1 Q2) as [A' B'].
      upd_at t'; [destruct (N _ (lookup_In _ _ _ A'))|auto].
    + (* create *) destruct P1 as [M D].
      apply lookup_reg in Q. destruct Q as [(_ & <- & ->)|Q'].
      * rewrite upd_eq in Q1. destruct (w_ro w); [discriminate|]. injection Q1 as <-.
        rewrite upd_eq. simpl. rewrite lookup_set_key, Nat.eqb_refl. split; [reflexivity|].
        destruct (done (txs st t)); [discriminate (D eq_refl)|reflexivity].
      * destruct (i_map _ I _ _ Q'). rewrite upd_neq in Q1, Q2 by lia. destruct (i_reg _ _ J _ _ _ Q' Q1 Q2) as [A B].
        upd_at t'; simpl; [destruct (w_ro w)|]; auto. rewrite lookup_set_key. destruct (Nat.eqb_spec (w_n w) n); [congruence|auto].
    + (* announce *) revert Q1 Q2. upd_at e; simpl; [discriminate|now apply (i_reg _ _ J)].
    + (* wlock *) destruct P as ((_ & Hn & _) & _). destruct P1 as [K D]. revert Q1 Q2. upd_at e; simpl; intros Q1 Q2.
      * injection Q1 as <-. rewrite upd_eq. simpl. destruct (i_map _ I _ _ Q) as (_ & Hn' & _).
        rewrite lookup_set_key, <- Hn, Hn', Nat.eqb_refl. auto.
      * destruct (i_reg _ _ J _ _ _ Q Q1 Q2) as [A B]. upd_at t'; simpl; auto. rewrite lookup_set_key.
        destruct (Nat.eqb_spec (w_n w) n) as [Heq|]; auto. unfold has_key in K. now rewrite Heq, A in K.
  - (* i_ph1 *) intros t'. pose proof (i_ph1 _ _ J t') as P.
    cases H; upd_at t'; eauto using ph_ok1_sub, ce_map; unfold ph_ok1 in *; simpl; auto.
    + (* found: not one of t's written caches *) intros Hs Hd. unfold has_key. now rewrite Hk.
    + (* new *) split; [exact Hl|]. intros Hd'. destruct Hd as [Hd|[Hd|Hd]]; congruence.
    + (* create: no other transaction is creating, t holds the manager lock *)
      pose proof (i_ph _ I t) as Q. pose proof (i_ph _ I t') as Q'. rewrite Hph in Q.
      destruct (ph (txs st t')); auto. simpl in Q, Q'. congruence.
    + (* announce *) rewrite Hph in P. destruct safe; auto.
Qed.

Lemma init_Inv1 : forall safe progs, Inv1 safe (init progs).
Proof. constructor; [discriminate|]. intros t. unfold ph_ok1. now rewrite init_ph. Qed.

Lemma run_Inv1 : forall safe limit ls st, Inv0 st -> Inv1 safe st -> Inv1 safe (run true safe limit ls st).
Proof.
  intros safe limit. apply run_invariant.
  - intros st t st' I J H. eapply trans_Inv1; eauto.
  - intros st n I J Hm. constructor; simpl.
    + intros n' e t Q. apply (i_reg _ _ J), (sub_map_remove_key n), Q.
    + intros t. exact (ph_ok1_sub _ _ _ _ (sub_map_remove_key n _) (i_ph1 _ _ J t)).
Qed.

Lemma released_of_inv : forall safe st, Inv0 st -> Inv1 safe st -> all_done st -> locks_released st.
Proof.
  intros safe st I J Hall. split.
  - destruct (mlock st) as [t|] eqn:Hm; auto.
    destruct (i_mlock _ I _ Hm) as (w & Hp). destruct (Hall t) as [[Hph _] _]. congruence.
  - intros n e Hl. split.
    + destruct (e_writer (elems st e)) as [t|] eqn:Hw; auto.
      destruct (Hall t) as [[Hph _] Hd].
      destruct (e_wheld (elems st e)) eqn:Hh.
      * destruct (i_reg _ _ J _ _ _ Hl Hw Hh). congruence.
      * destruct (i_waiting _ I _ _ Hw Hh) as (w & Hp). congruence.
    + destruct (e_readers (elems st e)) as [|t r] eqn:Hr; auto.
      assert (Hin : In t (e_readers (elems st e))) by (rewrite Hr; simpl; auto).
      pose proof (i_reader _ I _ _ Hin) as Hb. destruct (Hall t) as [[Hph _] _]. rewrite Hph in Hb. discriminate.
Qed.

(* no writer that has committed still holds an element another writer is about to lock *)
Definition InvQ (st : state) : Prop :=
  forall e t' t w, e_writer (elems st e) = Some t' -> done (txs st t') = true ->
    ph (txs st t) = PLock w e -> w_ro w = false -> done (txs st t) = false -> False.

Lemma init_Q : forall progs, InvQ (init progs).
Proof. intros progs e t' t w [=]. Qed.

Lemma writer_names : forall st e t', Inv0 st -> e_writer (elems st e) = Some t' ->
  (exists w, ph (txs st t') = PWait w e /\ e_name (elems st e) = w_n w /\ w_ro w = false) \/
  has_key (e_name (elems st e)) (written (txs st t')) = true.
Proof.
  intros st e t' I Hw. destruct (e_wheld (elems st e)) eqn:Hh.
  - right. now apply (i_holder _ I).
  - left. destruct (i_waiting _ I _ _ Hw Hh) as (w & Hp). exists w. split; auto.
    pose proof (i_ph _ I t') as P. rewrite Hp in P. destruct P as ((_ & Hn & _) & _ & _ & Hr). auto.
Qed.

Lemma registered_writer_live : forall safe st n e t', Inv0 st -> Inv1 safe st ->
  lookup n (mmap st) = Some e -> e_writer (elems st e) = Some t' -> done (txs st t') = false.
Proof.
  intros safe st n e t' I J Hl Hw. destruct (e_wheld (elems st e)) eqn:Hh.
  - now destruct (i_reg _ _ J _ _ _ Hl Hw Hh).
  - destruct (i_waiting _ I _ _ Hw Hh) as (w & Hp). pose proof (i_ph1 _ _ J t') as P. unfold ph_ok1 in P.
    rewrite Hp in P. apply P.
Qed.

Lemma step_Q : forall safe st s st', Inv0 st -> Inv1 safe st -> InvQ st -> disjoint_writers st ->
  trans true safe st s (txs st s) st' -> InvQ st'.
Proof.
  intros safe st s st' I J Q Dj H e t' t w.
  cases H; same I e_writer; same I done; intros Q1 Q2; upd_at t; simpl; try discriminate; try (now apply (Q e t' t w)).
  - (* commit: a writer waiting for an element of the committing transaction would share a name with it *)
    intros Hp Hro Hdt. destruct (ce_lock _ _ _ I Hd Hc e) as [(_ & A & _)|(_ & A & _)]; [congruence|]. rewrite A in Q1.
    revert Q2. upd_at t'; [intros _|intros Q2; now apply (Q e t' t w)].
    pose proof (i_ph _ I t) as P. rewrite Hp in P. destruct P as (_ & Hn & _).
    destruct (writer_names st e s I Q1) as [(w2 & Hp2 & _)|Hk]; [congruence|].
    apply n, (Dj t s (w_n w)); (split; [assumption|]); [right|left]; [rewrite Hp; simpl; now rewrite Hro|now rewrite <- Hn].
  - (* found: the writer of a registered element has not committed *)
    intros [= <- <-] _ _. pose proof (registered_writer_live _ _ _ _ _ I J Hl Q1). congruence.
  - (* create *) intros Hp. revert Q1. upd_at e; [|intros Q1; now apply (Q e t' t w)].
    pose proof (i_ph _ I t) as P. rewrite Hp in P. destruct P as (P & _). lia.
  - (* announce *) revert Q1. upd_at e; simpl; [intros [= <-]|intros Q1; now apply (Q e t' t w)].
    rewrite Hd in Q2; [discriminate|reflexivity].
  - (* wlock *) revert Q1. upd_at e; simpl; [intros [= <-]|intros Q1; now apply (Q e t' t w)].
    pose proof (i_ph1 _ _ J s) as P. unfold ph_ok1 in P. rewrite Hph in P. destruct P. congruence.
Qed.

Lemma run_always_Q : forall safe limit ls st, Inv0 st -> Inv1 safe st -> InvQ st ->
  always disjoint_writers true safe limit ls st ->
  let st' := run true safe limit ls st in Inv0 st' /\ Inv1 safe st' /\ InvQ st' /\ disjoint_writers st'.
Proof.
  induction ls as [|l ls IH]; simpl; intros st I J Q A; auto.
  destruct A as [Dj A]. apply IH; auto using next_Inv0.
  - apply (run_Inv1 safe limit [l]); auto.
  - apply next_cases; eauto using step_Q.
Qed.

(* a step is enabled: evaluate step in phase Hp under the guards at hand *)
Ltac enabled Hp :=
  unfold step; rewrite Hp;
  repeat match goal with
         | |- context [match ?x with _ => _ end] => let E := fresh "En" in destruct x eqn:E
         | |- context [if ?x then _ else _] => let E := fresh "En" in destruct x eqn:E
         end; try (eexists; reflexivity); simpl in *; try discriminate; try congruence.

Lemma progress_state : forall safe limit st, Inv0 st -> Inv1 safe st -> InvQ st -> disjoint_writers st ->
  (exists t, ~ finished (txs st t)) -> exists t st', step true safe limit st t = Some st'.
Proof.
  intros safe limit st I J Q Dj [t0 Hnf].
  destruct (mlock st) as [h|] eqn:Hm.
  { destruct (i_mlock _ I _ Hm) as (w & Hp). exists h. enabled Hp. }
  (* the manager mutex is free *)
  assert (Hfree : free (mlock st) = true) by (rewrite Hm; reflexivity).
  pose proof (i_ph _ I t0) as P. pose proof (i_ph1 _ _ J t0) as P1. unfold ph_ok1 in P1.
  destruct (ph (txs st t0)) eqn:Hp; simpl in P.
  (* from the scrapped check on, nothing blocks t0 but the manager mutex *)
  5-9: exists t0; enabled Hp.
  - (* PIdle *) exists t0. unfold finished in Hnf. enabled Hp. all: try (exfalso; apply Hnf; auto).
  - congruence.
  - (* PLock *) destruct (w_ro w) eqn:Hro; [exists t0; enabled Hp|].
    destruct (done (txs st t0)) eqn:Hd; [exists t0; enabled Hp|].
    destruct (negb safe && has_key (w_n w) (written (txs st t0))) eqn:Hk0; [exists t0; enabled Hp|].
    assert (Hk : has_key (w_n w) (written (txs st t0)) = false) by (destruct safe; simpl in Hk0; auto).
    destruct (e_writer (elems st e)) as [t'|] eqn:Hw; [|exists t0; enabled Hp].
    (* the writer and t0 are active writers of the same name *)
    exfalso. destruct P as (_ & Hn & _).
    assert (Ha0 : active_writer st t0 (w_n w)).
    { split; auto. right. rewrite Hp. simpl. now rewrite Hro. }
    destruct (done (txs st t')) eqn:Hd'; [eapply Q; eauto|].
    assert (t0 = t'); [|subst; destruct (writer_names st e t' I Hw) as [(w2 & Hp2 & _)|Hk2]; congruence].
    apply (Dj t0 t' (w_n w)); auto. split; auto.
    destruct (writer_names st e t' I Hw) as [(w2 & Hp2 & Hn2 & Hr2)|Hk2]; [right|left]; [|congruence].
    rewrite Hp2. simpl. rewrite Hr2. congruence.
  - (* PWait *) destruct (e_readers (elems st e)) as [|r rs] eqn:Hr; [exists t0; enabled Hp|].
    assert (Hin : In r (e_readers (elems st e))) by (rewrite Hr; simpl; auto).
    pose proof (i_reader _ I _ _ Hin) as Hb. exists r.
    destruct (ph (txs st r)) eqn:Hpr; simpl in Hb; try discriminate Hb; enabled Hpr.
Qed.

(* the hypothesis of the progress theorem is satisfiable: if all transactions but one
   are read-only, writers are trivially disjoint *)
Definition wctx_of (p : phase) : option wctx :=
  match p with
  | PCreate w | PLock w _ | PWait w _ | PScrap w _ _ | PReady w _ | PIn w _ | PErr w _ => Some w
  | _ => None
  end.
Definition InvR (R : tid -> Prop) (st : state) : Prop :=
  forall t, R t -> ro_prog (prog (txs st t)) = true /\ written (txs st t) = [] /\
                   match wctx_of (ph (txs st t)) with Some w => w_ro w = true | None => True end.

Lemma ro_tl : forall p, ro_prog p = true -> ro_prog (tl p) = true.
Proof. destruct p; simpl; auto. intros H. apply andb_true_iff in H. tauto. Qed.

Lemma step_R : forall R fixed safe st s st', Inv0 st -> InvR R st -> trans fixed safe st s (txs st s) st' -> InvR R st'.
Proof.
  intros R fixed safe st s st' I IR H t Rt. destruct (IR t Rt) as (Hp & Hw & Hc').
  destruct (Nat.eq_dec t s) as [->|Hne]; [|rewrite (trans_txs _ _ _ _ _ _ H Hne); auto].
  pose proof (i_ph _ I s) as P.
  cases H; rewrite upd_eq; simpl; rewrite Hph in Hc', P; simpl in Hc'; auto using ro_tl.
  1-3: pose proof Hp as Hp'; rewrite Hpr in Hp'; apply andb_true_iff in Hp'; tauto.
  - (* create *) rewrite Hc'. auto.
  - (* wlock: only a writing access waits *) destruct P as (_ & _ & _ & P). congruence.
Qed.

Lemma init_R : forall (R : tid -> Prop) progs,
  (forall t p, R t -> nth_error progs t = Some p -> ro_prog p = true) -> InvR R (init progs).
Proof.
  intros R progs Hro t Rt. rewrite init_tx. destruct (nth_error progs t) eqn:E; simpl; auto.
  repeat split; auto. eapply Hro; eauto.
Qed.

Lemma R_disjoint : forall R st w0, InvR R st -> (forall t, t <> w0 -> R t) -> disjoint_writers st.
Proof.
  intros R st w0 IR Hall t t' n [_ A] [_ A'].
  assert (X : forall u, (has_key n (written (txs st u)) = true \/ cur_write (ph (txs st u)) = Some n) -> u = w0).
  { intros u Hu. destruct (Nat.eq_dec u w0) as [|Hne]; auto. exfalso.
    destruct (IR u (Hall u Hne)) as (_ & Hw & Hc). destruct Hu as [Hu|Hu].
    - rewrite Hw in Hu. discriminate.
    - destruct (ph (txs st u)); simpl in *; try discriminate; rewrite Hc in Hu; discriminate. }
  rewrite (X t A), (X t' A'). reflexivity.
Qed.

Lemma always_disjoint_single_writer : forall R w0 safe limit ls st, Inv0 st -> InvR R st ->
  (forall t, t <> w0 -> R t) -> always disjoint_writers true safe limit ls st.
Proof.
  induction ls as [|l ls IH]; simpl; intros st I IR Hall.
  - eapply R_disjoint; eauto.
  - split; [eapply R_disjoint; eauto|]. apply IH; auto using next_Inv0.
    apply next_cases; eauto using step_R.
Qed.
