(* Props_C19_Flocq.v -- the order of Model_C19.f64_ord on 64-bit patterns is Flocq's
   IEEE-754 binary64 comparison of the decoded values.  The statements; all but the first
   are read off c19_f64_ord_is_ieee or the description of the decoded value in Flocq_C19.v. *)
From Coq Require Import NArith ZArith Reals.
From Flocq Require Import Core Binary Bits.
From Semadb Require Import Bytes U64 KeyLayout Model_C19 Flocq_C19.
Open Scope N_scope.

(* the sign-magnitude order on non-NaN bit patterns IS Bcompare on binary64 *)
Theorem c19_f64_ord_is_ieee : forall a b, a < two64 -> b < two64 ->
  f64_nan a = false -> f64_nan b = false ->
  Bcompare 53 1024 (b64_of_bits (Z.of_N a)) (b64_of_bits (Z.of_N b))
  = Some (Z.compare (f64_ord a) (f64_ord b)).
Proof. exact f64_ord_Bcompare. Qed.
Print Assumptions c19_f64_ord_is_ieee.

Theorem c19_f64_lt_is_ieee : forall a b, a < two64 -> b < two64 ->
  f64_nan a = false -> f64_nan b = false ->
  (f64_lt a b = true <->
   Bcompare 53 1024 (b64_of_bits (Z.of_N a)) (b64_of_bits (Z.of_N b)) = Some Lt).
Proof.
  intros a b Ha Hb Hna Hnb. rewrite f64_ord_Bcompare by assumption.
  unfold f64_lt. rewrite Z.ltb_lt. unfold Z.lt. split; [now intros -> | congruence].
Qed.
Print Assumptions c19_f64_lt_is_ieee.

Theorem c19_f64_eq_is_ieee : forall a b, a < two64 -> b < two64 ->
  f64_nan a = false -> f64_nan b = false ->
  (f64_eq a b = true <->
   Bcompare 53 1024 (b64_of_bits (Z.of_N a)) (b64_of_bits (Z.of_N b)) = Some Eq).
Proof.
  intros a b Ha Hb Hna Hnb. rewrite f64_ord_Bcompare by assumption.
  unfold f64_eq. rewrite Z.eqb_eq, <- Z.compare_eq_iff. split; [now intros -> | congruence].
Qed.
Print Assumptions c19_f64_eq_is_ieee.

(* ... and equal means: the same pattern, or the two zeros *)
Theorem c19_f64_eq_bits : forall a b, a < two64 -> b < two64 ->
  (f64_eq a b = true <-> a = b \/ (f64_is_zero a = true /\ f64_is_zero b = true)).
Proof. intros a b _ _. apply f64_eq_bits. Qed.
Print Assumptions c19_f64_eq_bits.

(* the NaN test of the model is Flocq's *)
Theorem c19_f64_nan_is_ieee : forall a, a < two64 ->
  (f64_nan a = true <-> is_nan 53 1024 (b64_of_bits (Z.of_N a)) = true).
Proof. intros a Ha. now rewrite f64_nan_is_nan. Qed.
Print Assumptions c19_f64_nan_is_ieee.

Theorem c19_f64_nan_unordered : forall a b, a < two64 -> b < two64 ->
  f64_nan a = true \/ f64_nan b = true ->
  Bcompare 53 1024 (b64_of_bits (Z.of_N a)) (b64_of_bits (Z.of_N b)) = None.
Proof.
  intros a b Ha Hb H. rewrite Bcompare_b64.
  destruct H as [H|H].
  - now rewrite (f64_sf_nan a Ha H).
  - rewrite (f64_sf_nan b Hb H). now destruct (sf_of_bits (Z.of_N a)).
Qed.
Print Assumptions c19_f64_nan_unordered.

(* the byte order of the encoded keys is Bcompare on the decoded doubles *)
Theorem c19_f64_key_order_is_ieee : forall a b c, a < two64 -> b < two64 ->
  f64_nan a = false -> f64_nan b = false ->
  (lex_compare (enc_f64 a) (enc_f64 b) = c <->
   Bcompare 53 1024 (b64_of_bits (Z.of_N a)) (b64_of_bits (Z.of_N b)) = Some c).
Proof.
  intros a b c Ha Hb Hna Hnb. rewrite f64_ord_Bcompare, Proofs_C19.enc_f64_compare by assumption.
  split; [now intros -> | congruence].
Qed.
Print Assumptions c19_f64_key_order_is_ieee.

(* the real-number reading, for finite values *)
Theorem c19_f64_finite_is_ieee : forall a, a < two64 ->
  f64_finite a = is_finite 53 1024 (b64_of_bits (Z.of_N a)).
Proof. exact f64_finite_is_finite. Qed.
Print Assumptions c19_f64_finite_is_ieee.

Theorem c19_f64_ord_is_real_order : forall a b, a < two64 -> b < two64 ->
  f64_finite a = true -> f64_finite b = true ->
  Rcompare (B2R 53 1024 (b64_of_bits (Z.of_N a))) (B2R 53 1024 (b64_of_bits (Z.of_N b)))
  = Z.compare (f64_ord a) (f64_ord b).
Proof.
  intros a b Ha Hb Hfa Hfb.
  pose proof (f64_ord_Bcompare a b Ha Hb (f64_finite_not_nan a Hfa) (f64_finite_not_nan b Hfb)) as H.
  rewrite Bcompare_correct in H by (rewrite <- f64_finite_is_finite; assumption).
  congruence.
Qed.
Print Assumptions c19_f64_ord_is_real_order.

(* the hypotheses are satisfiable by non-trivial data, and Flocq computes the same *)
(* -0.0 (0x8000..) vs +0.0 *)
Example ex_zeros : Bcompare 53 1024 (b64_of_bits (Z.of_N two63)) (b64_of_bits 0) = Some Eq
  /\ f64_eq two63 0 = true /\ f64_nan two63 = false.
Proof. vm_compute. repeat split. Qed.
(* -1.0 (0xBFF0..) < smallest subnormal (1) < 1.0 (0x3FF0..) < +inf (0x7FF0..) *)
Example ex_chain :
  Bcompare 53 1024 (b64_of_bits 13830554455654793216) (b64_of_bits 1) = Some Lt /\
  Bcompare 53 1024 (b64_of_bits 1) (b64_of_bits 4607182418800017408) = Some Lt /\
  Bcompare 53 1024 (b64_of_bits 4607182418800017408) (b64_of_bits 9218868437227405312) = Some Lt /\
  f64_lt 13830554455654793216 1 = true /\ f64_lt 1 4607182418800017408 = true /\
  f64_lt 4607182418800017408 9218868437227405312 = true /\
  f64_nan 13830554455654793216 = false /\ f64_nan 9218868437227405312 = false /\
  f64_finite 9218868437227405312 = false /\ f64_finite 1 = true.
Proof. vm_compute. repeat split. Qed.
(* a NaN (0x7FF8..) *)
Example ex_nan : f64_nan 9221120237041090560 = true /\
  is_nan 53 1024 (b64_of_bits 9221120237041090560) = true /\
  Bcompare 53 1024 (b64_of_bits 9221120237041090560) (b64_of_bits 0) = None.
Proof. vm_compute. repeat split. Qed.
