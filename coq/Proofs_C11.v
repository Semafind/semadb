(* Proofs_C11.v -- lemmas for property C11 (shared-cache transactions).
   Invariants of the small-step model Model_C11.v, proved by induction over
   ARBITRARY schedules, any number of transactions, any program lengths.
   The step function is read as a relation, one constructor per transition.  An
   invariant survives a transition because the transition leaves the fields it
   reads alone (tactic `same`), or by an argument given at that transition. *)
From Coq Require Import List Arith Bool ZArith Lia PeanoNat.
From Semadb Require Import ListFacts Model_C11.
Import ListNotations.

Lemma upd_eq : forall A (f : nat -> A) k v, upd f k v k = v.
Proof. intros. unfold upd. now rewrite Nat.eqb_refl. Qed.
Lemma upd_neq : forall A (f : nat -> A) k v x, x <> k -> upd f k v x = f x.
Proof. intros. unfold upd. destruct (Nat.eqb_spec x k); congruence. Qed.
Lemma upd_proj : forall A B (p : A -> B) (f : nat -> A) k v x, p v = p (f k) -> p (upd f k v x) = p (f x).
Proof. intros. unfold upd. destruct (Nat.eqb_spec x k); congruence. Qed.

(* lookup / remove_key / set_key are aget / adel / aput over this test, the stored key on the left *)
Lemma eqb_stored_spec : forall a b, reflect (a = b) (Nat.eqb b a).
Proof. intros a b. destruct (Nat.eqb_spec b a); constructor; congruence. Qed.

Lemma lookup_remove_key : forall n k m,
  lookup n (remove_key k m) = if Nat.eqb k n then None else lookup n m.
Proof. exact (aget_adel eqb_stored_spec). Qed.
Lemma lookup_set_key : forall n k v m,
  lookup n (set_key k v m) = if Nat.eqb k n then Some v else lookup n m.
Proof. exact (aget_aput eqb_stored_spec). Qed.
(* the manager map after the creation of element x for name k, registered or not *)
Lemma lookup_reg : forall (reg : bool) k x m n e,
  lookup n (if reg then set_key k x m else m) = Some e ->
  reg = true /\ k = n /\ e = x \/ lookup n m = Some e.
Proof.
  intros [|] k x m n e; [|auto]. rewrite lookup_set_key.
  destruct (Nat.eqb_spec k n); [intros [= <-]|]; auto.
Qed.
Lemma has_key_set_key : forall n k v m,
  has_key n (set_key k v m) = Nat.eqb k n || has_key n m.
Proof. intros. unfold has_key. rewrite lookup_set_key. now destruct (Nat.eqb k n). Qed.
Lemma lookup_In : forall n m e, lookup n m = Some e -> In (n, e) m.
Proof. intros n m e. exact (aget_In eqb_stored_spec n e m). Qed.
Lemma In_remove_key : forall k m p, In p (remove_key k m) -> In p m /\ fst p <> k.
Proof. intros k m p. exact (adel_In eqb_stored_spec k p m). Qed.
Lemma In_set_key : forall k v m p, In p (set_key k v m) -> p = (k, v) \/ In p m.
Proof. intros k v m p [H|H]; [auto|right; now apply In_remove_key in H]. Qed.
Lemma has_key_lookup : forall n m, has_key n m = true <-> exists e, lookup n m = Some e.
Proof.
  intros. unfold has_key. destruct (lookup n m) as [e|]; split; [eauto|reflexivity|discriminate|].
  intros [e H]. discriminate H.
Qed.

(* m' is m with some entries removed: all that the transitions say of unregistering and pruning *)
Definition sub_map (m' m : list (name * eid)) : Prop :=
  forall n e, lookup n m' = Some e -> lookup n m = Some e.
Lemma sub_map_refl : forall m, sub_map m m.
Proof. intros m n e H. exact H. Qed.
Lemma sub_map_trans : forall a b c, sub_map a b -> sub_map b c -> sub_map a c.
Proof. unfold sub_map. auto. Qed.
Lemma sub_map_remove_key : forall k m, sub_map (remove_key k m) m.
Proof. intros k m n e. rewrite lookup_remove_key. destruct (Nat.eqb k n); [discriminate|auto]. Qed.
Lemma sub_map_remove_if : forall k e m, sub_map (remove_if k e m) m.
Proof.
  intros k e m. unfold remove_if. destruct (lookup k m) as [e'|]; [destruct (Nat.eqb e' e)|];
    auto using sub_map_refl, sub_map_remove_key.
Qed.
Lemma sub_map_prune_n : forall el lim f m, sub_map (prune_n f lim el m) m.
Proof.
  induction f; simpl; intros m; [apply sub_map_refl|].
  destruct (Nat.leb (length m) lim); [apply sub_map_refl|].
  destruct (oldest el m) as [[k l]|]; [|apply sub_map_refl].
  eapply sub_map_trans; [apply IHf|apply sub_map_remove_key].
Qed.
Lemma sub_map_prune_map : forall lim el m, sub_map (prune_map lim el m) m.
Proof.
  unfold prune_map. intros lim el m.
  destruct (Z.ltb lim 0); [apply sub_map_refl|]. destruct (Z.eqb lim 0); [discriminate|].
  apply sub_map_prune_n.
Qed.
Lemma prune_map_limit0 : forall el m, prune_map 0 el m = [].
Proof. reflexivity. Qed.

Lemma In_remove_tid : forall x t l, In x (remove_tid t l) <-> In x l /\ x <> t.
Proof.
  intros. unfold remove_tid. rewrite filter_In.
  destruct (Nat.eqb_spec x t); simpl; intuition congruence.
Qed.

Lemma free_none : forall l, free l = true -> l = None.
Proof. destruct l; simpl; congruence. Qed.
Lemma free_some : forall l, free l = false -> exists t, l = Some t.
Proof. destruct l; simpl; [eauto|congruence]. Qed.

(* st1 is st after the Commit of the elements xs: their write locks are opened;
   what else Commit may change is `scrapped` (never reset), the storage
   versions, and the map, which only loses entries *)
Record commit_eff (xs : list eid) (st st1 : state) : Prop := {
  ce_nexte : nexte st1 = nexte st;
  ce_mlock : mlock st1 = mlock st;
  ce_txs : txs st1 = txs st;
  ce_map : sub_map (mmap st1) (mmap st);
  ce_name : forall e, e_name (elems st1 e) = e_name (elems st e);
  ce_owner : forall e, e_owner (elems st1 e) = e_owner (elems st e);
  ce_readers : forall e, e_readers (elems st1 e) = e_readers (elems st e);
  ce_scrapped : forall e, e_scrapped (elems st e) = true -> e_scrapped (elems st1 e) = true;
  ce_open : forall e, In e xs -> e_writer (elems st1 e) = None /\ e_wheld (elems st1 e) = false;
  ce_keep : forall e, ~ In e xs ->
              e_writer (elems st1 e) = e_writer (elems st e) /\ e_wheld (elems st1 e) = e_wheld (elems st e);
  ce_fresh : forall e, ~ In e xs -> (forall k, lookup k (mmap st) <> Some e) -> elems st1 e = elems st e
}.

Lemma commit_one_eff : forall safe bad st n x, commit_eff [x] st (commit_one safe bad st (n, x)).
Proof.
  intros safe bad st n x. unfold commit_one.
  destruct bad; [|destruct safe; [destruct (lookup n (mmap st)) as [cur|] eqn:El; [destruct (Nat.eqb_spec cur x)|]|]].
  all: split; simpl; auto using sub_map_refl, sub_map_remove_key; try (destruct safe; auto using sub_map_remove_key, sub_map_remove_if; fail); intros y.
  all: unfold upd; repeat match goal with |- context [Nat.eqb ?a ?b] => destruct (Nat.eqb_spec a b); subst end; simpl.
  all: auto; try (intuition congruence).
  intros _ Hr. destruct (Hr _ El).
Qed.

Lemma commit_eff_trans : forall xs ys st st1 st2,
  commit_eff xs st st1 -> commit_eff ys st1 st2 -> commit_eff (xs ++ ys) st st2.
Proof.
  intros xs ys st st1 st2 A B. split; try (intros e; rewrite ?in_app_iff).
  all: try (rewrite ?(ce_nexte _ _ _ B), ?(ce_mlock _ _ _ B), ?(ce_txs _ _ _ B), ?(ce_name _ _ _ B), ?(ce_owner _ _ _ B), ?(ce_readers _ _ _ B); apply A).
  - eapply sub_map_trans; [apply B|apply A].
  - intros H. apply B, A, H.
  - intros H. destruct (in_dec Nat.eq_dec e ys) as [Hy|Hy]; [now apply B|].
    destruct (ce_keep _ _ _ B e Hy) as [-> ->]. apply A. tauto.
  - intros H. destruct (ce_keep _ _ _ B e) as [-> ->]; [tauto|]. apply A. tauto.
  - intros H Hr. rewrite (ce_fresh _ _ _ B), (ce_fresh _ _ _ A); auto; try tauto.
    intros k Hk. apply (Hr k), A, Hk.
Qed.

Lemma commit_all_eff : forall safe bad W st, commit_eff (map snd W) st (commit_all safe bad st W).
Proof.
  induction W as [|[n x] W IH]; intros st; [split; auto using sub_map_refl; intros e []|].
  exact (commit_eff_trans [x] _ _ _ _ (commit_one_eff safe bad st n x) (IH _)).
Qed.

(* the step function as a relation: one constructor per transition, with the guards
   the proofs use and the new state written out *)
Section Trans.
Variables (fixed safe : bool) (st : state) (t : tid) (T : tx).

Inductive trans : state -> Prop :=
| t_commit fl r st1 (Hph : ph T = PIdle) (Hpr : prog T = OCommit fl :: r) (Hd : done T = false)
    (Hst1 : st1 = commit_all safe (failed T || fl) st (written T)) (Hc : commit_eff (map snd (written T)) st st1) :
    trans (set_tx st1 t (tx_commit T))
| t_pop fl r (Hph : ph T = PIdle) (Hpr : prog T = OCommit fl :: r) :
    trans (set_tx st t (tx_pop T))
| t_refuse (Hph : ph T = PIdle) :
    trans (set_tx st t (tx_ret T true))
| t_own n ro oc r e (Hph : ph T = PIdle) (Hpr : prog T = OWith n ro oc :: r)
    (Hl : lookup n (written T) = Some e) :
    trans (set_tx st t (tx_ph T (PScrap (mkW n ro oc) e None)))
| t_found n ro oc r e (Hph : ph T = PIdle) (Hpr : prog T = OWith n ro oc :: r)
    (Hl : lookup n (mmap st) = Some e)
    (Hk : safe = true -> done T = false -> lookup n (written T) = None) :
    trans (set_tx (tick (set_elem st e (e_set_last (elems st e) (clock st)))) t
             (tx_ph T (PLock (mkW n ro oc) e)))
| t_new n ro oc r (Hph : ph T = PIdle) (Hpr : prog T = OWith n ro oc :: r)
    (Hm : mlock st = None) (Hl : lookup n (mmap st) = None)
    (Hd : ro = true \/ fixed = false \/ done T = false) :
    trans (set_tx (set_mlock st (Some t)) t (tx_ph T (PCreate (mkW n ro oc))))
| t_create_fail w (Hph : ph T = PCreate w) :
    trans (set_tx (set_mlock st None) t (tx_ret (tx_fail T) true))
| t_create w (reg : bool) (Hph : ph T = PCreate w) :
    trans (set_tx
             (set_mlock
                (set_map (alloc st (fresh_elem (w_n w) (if reg then None else Some t)
                                      (if w_ro w then None else Some t) (if w_ro w then [t] else [])
                                      (committed st (w_n w)) (clock st)))
                   (if reg then set_key (w_n w) (nexte st) (mmap st) else mmap st)) None) t
             (mkT (prog T) (PReady w (mkC (nexte st) reg (if w_ro w then Some (nexte st) else None) false))
                (if w_ro w then written T else set_key (w_n w) (nexte st) (written T))
                (failed T) (done T) (rets T)))
| t_lock_own w e (Hph : ph T = PLock w e) (Hs : safe = false) (Hk : has_key (w_n w) (written T) = true) :
    trans (set_tx st t (tx_ph T (PScrap w e None)))
| t_rlock w e (Hph : ph T = PLock w e) (Hro : w_ro w = true) (Hw : e_writer (elems st e) = None) :
    trans (set_tx (set_elem st e (e_set_readers (elems st e) (t :: e_readers (elems st e)))) t
             (tx_ph T (PScrap w e (Some e))))
| t_rlock_fail w e (Hph : ph T = PLock w e) :
    trans (set_tx st t (tx_ret (tx_fail T) true))
| t_rlock_copy w e (Hph : ph T = PLock w e) :
    trans (set_tx (alloc st (fresh_elem (w_n w) (Some t) None [] (committed st (w_n w)) (clock st))) t
             (tx_ph T (PReady w (mkC (nexte st) false None true))))
| t_lock_late w e (Hph : ph T = PLock w e) :
    trans (set_tx st t (tx_ret T true))
| t_announce w e (Hph : ph T = PLock w e) (Hro : w_ro w = false) (Hw : e_writer (elems st e) = None)
    (Hd : fixed = true -> done T = false) (Hk : safe = false -> has_key (w_n w) (written T) = false) :
    trans (set_tx (set_elem st e (e_set_writer (elems st e) (Some t) false)) t (tx_ph T (PWait w e)))
| t_wlock w e (Hph : ph T = PWait w e) (Hr : e_readers (elems st e) = []) :
    trans (set_tx (set_elem st e (e_set_writer (elems st e) (Some t) true)) t
             (tx_ph (tx_written T (set_key (w_n w) e (written T))) (PScrap w e None)))
| t_scrapped_fail w e rl (Hph : ph T = PScrap w e rl) :
    trans (set_tx st t (tx_ph (tx_fail T) (PRet true rl false true)))
| t_scrapped_copy w e rl (Hph : ph T = PScrap w e rl) :
    trans (set_tx (alloc st (fresh_elem (w_n w) (Some t) None [] (committed st (w_n w)) (clock st))) t
             (tx_ph T (PReady w (mkC (nexte st) false rl true))))
| t_select w e rl (Hph : ph T = PScrap w e rl) (Hsc : e_scrapped (elems st e) = false) :
    trans (set_tx st t (tx_ph T (PReady w (mkC e true rl true))))
| t_call w c (Hph : ph T = PReady w c) : trans (set_tx st t (tx_ph T (PIn w c)))
| t_cb_fail w c (Hph : ph T = PIn w c) :
    trans (set_tx (set_elem st (c_e c) (e_scrap (elems st (c_e c)))) t (tx_ph (tx_fail T) (PErr w c)))
| t_cb_ok w c (Hph : ph T = PIn w c) :
    trans (set_tx st t (tx_ph T (PRet false (c_rl c) (c_sh c) (c_pf c))))
| t_unreg w c m' (Hph : ph T = PErr w c) (Hsub : sub_map m' (mmap st)) :
    trans (set_tx (set_map st m') t (tx_ph T (PRet true (c_rl c) (c_sh c) (c_pf c))))
| t_noprune err rl pf (Hph : ph T = PRet err rl true pf) :
    trans (set_tx st t (tx_ph T (PRet err rl false pf)))
| t_prune err rl pf m' (Hph : ph T = PRet err rl true pf) (Hsub : sub_map m' (mmap st)) :
    trans (set_tx (set_map st m') t (tx_ph T (PRet err rl false pf)))
| t_runlock err e pr pf (Hph : ph T = PRet err (Some e) pr pf) :
    trans (set_tx (set_elem st e (e_set_readers (elems st e) (remove_tid t (e_readers (elems st e))))) t
             (tx_ph T (PRet err None pr pf)))
| t_return err pr pf (Hph : ph T = PRet err None pr pf) : trans (set_tx st t (tx_ret T err)).
End Trans.

Arguments commit_all : simpl never.
Arguments set_key : simpl never.
Arguments remove_key : simpl never.
Arguments lookup : simpl never.
Arguments has_key : simpl never.
Arguments remove_tid : simpl never.

(* the read lock a phase holds *)
Definition rl_of (p : phase) : option eid :=
  match p with
  | PScrap _ _ rl => rl
  | PReady _ c | PIn _ c | PErr _ c => c_rl c
  | PRet _ rl _ _ => rl
  | _ => None
  end.

(* e is an allocated element for name n that t may use: shared, or private to t *)
Definition ref (nx : eid) (el : eid -> elem) (t : tid) (e : eid) (n : name) : Prop :=
  e < nx /\ e_name (el e) = n /\ (e_owner (el e) = None \/ e_owner (el e) = Some t).
Definition rl_ok (el : eid -> elem) (t : tid) (rl : option eid) : Prop :=
  forall e, rl = Some e -> In t (e_readers (el e)).

(* what transaction t, with written caches W, knows in phase p *)
Definition ph_ok (st : state) (t : tid) (W : list (name * eid)) (p : phase) : Prop :=
  let el := elems st in
  match p with
  | PIdle => True
  | PCreate _ => mlock st = Some t
  | PLock w e => ref (nexte st) el t e (w_n w)
  | PWait w e => ref (nexte st) el t e (w_n w) /\
                 e_writer (el e) = Some t /\ e_wheld (el e) = false /\ w_ro w = false
  | PScrap w e rl => ref (nexte st) el t e (w_n w) /\ rl_ok el t rl /\ (w_ro w = false -> rl = None) /\
                     (rl = Some e \/ rl = None /\ has_key (w_n w) W = true)
  | PReady w c | PIn w c | PErr w c =>
      ref (nexte st) el t (c_e c) (w_n w) /\ rl_ok el t (c_rl c) /\ (w_ro w = false -> c_rl c = None) /\
      (c_sh c = false -> e_owner (el (c_e c)) = Some t) /\
      (c_sh c = true -> c_rl c = Some (c_e c) \/ has_key (w_n w) W = true)
  | PRet _ rl _ _ => rl_ok el t rl
  end.

(* structural invariants: both versions of With, any limit, any programs, any schedule
   (environment steps included) *)
Record Inv0 (st : state) : Prop := {
  i_fresh : forall e, nexte st <= e -> elems st e = noelem;
  i_map : forall n e, lookup n (mmap st) = Some e ->
           e < nexte st /\ e_name (elems st e) = n /\ e_owner (elems st e) = None;
  i_ph : forall t, ph_ok st t (written (txs st t)) (ph (txs st t));
  i_written : forall t n e, In (n, e) (written (txs st t)) -> ref (nexte st) (elems st) t e n;
  i_reader : forall e t, In t (e_readers (elems st e)) -> rl_of (ph (txs st t)) = Some e;
  i_waiting : forall e t, e_writer (elems st e) = Some t -> e_wheld (elems st e) = false ->
           exists w, ph (txs st t) = PWait w e;
  i_held : forall e, e_wheld (elems st e) = true ->
           e_readers (elems st e) = [] /\ e_writer (elems st e) <> None;
  i_wlock : forall t n e, In (n, e) (written (txs st t)) -> done (txs st t) = false ->
           e_writer (elems st e) = Some t /\ e_wheld (elems st e) = true;
  i_holder : forall e t, e_writer (elems st e) = Some t -> e_wheld (elems st e) = true ->
           has_key (e_name (elems st e)) (written (txs st t)) = true;
  i_owner : forall e o, e_owner (elems st e) = Some o ->
           e_writer (elems st e) = None \/ e_writer (elems st e) = Some o;
  i_mlock : forall t, mlock st = Some t -> exists w, ph (txs st t) = PCreate w;
  i_prog : forall t, ph (txs st t) <> PIdle -> prog (txs st t) <> []
}.

Lemma rl_ok_None : forall el t, rl_ok el t None.
Proof. intros el t e [=]. Qed.
Lemma rl_ok_upd : forall el e0 E' t rl, (In t (e_readers (el e0)) -> In t (e_readers E')) ->
  rl_ok el t rl -> rl_ok (upd el e0 E') t rl.
Proof.
  unfold rl_ok, upd. intros el e0 E' t rl H R e He. specialize (R e He). destruct (Nat.eqb_spec e e0); subst; auto.
Qed.
Lemma ref_upd : forall nx el e0 E' t e n, e_name E' = e_name (el e0) -> e_owner E' = e_owner (el e0) ->
  ref nx el t e n -> ref nx (upd el e0 E') t e n.
Proof. unfold ref. intros. now rewrite (upd_proj _ _ e_name), (upd_proj _ _ e_owner). Qed.
Lemma ref_alloc : forall nx el E t e n, ref nx el t e n -> ref (S nx) (upd el nx E) t e n.
Proof. unfold ref. intros nx el E t e n (Hlt & H). rewrite upd_neq by lia. split; [lia|exact H]. Qed.
Lemma ref_new : forall nx el E t n, e_name E = n -> e_owner E = None \/ e_owner E = Some t ->
  ref (S nx) (upd el nx E) t nx n.
Proof. unfold ref. intros. rewrite upd_eq. auto. Qed.
Lemma rl_ok_alloc : forall el nx E t rl, el nx = noelem -> rl_ok el t rl -> rl_ok (upd el nx E) t rl.
Proof. intros el nx E t rl H. apply rl_ok_upd. rewrite H. intros []. Qed.
Global Hint Resolve rl_ok_None rl_ok_upd rl_ok_alloc ref_upd ref_alloc ref_new : c11.

Lemma reader_lt : forall st t e, Inv0 st -> In t (e_readers (elems st e)) -> e < nexte st.
Proof.
  intros st t e I H. destruct (le_lt_dec (nexte st) e) as [Hle|]; auto. rewrite (i_fresh _ I _ Hle) in H. destruct H.
Qed.
Lemma writer_lt : forall st t e, Inv0 st -> e_writer (elems st e) = Some t -> e < nexte st.
Proof.
  intros st t e I H. destruct (le_lt_dec (nexte st) e) as [Hle|]; auto. rewrite (i_fresh _ I _ Hle) in H. discriminate.
Qed.

(* Commit by a transaction that has not committed releases its written elements,
   which it write-holds, and no other lock *)
Lemma ce_lock : forall st t st1, Inv0 st -> done (txs st t) = false ->
  commit_eff (map snd (written (txs st t))) st st1 -> forall e,
  e_writer (elems st e) = Some t /\ e_writer (elems st1 e) = None /\ e_wheld (elems st1 e) = false \/
  (forall n, ~ In (n, e) (written (txs st t))) /\
    e_writer (elems st1 e) = e_writer (elems st e) /\ e_wheld (elems st1 e) = e_wheld (elems st e).
Proof.
  intros st t st1 I Hd C e. destruct (in_dec Nat.eq_dec e (map snd (written (txs st t)))) as [Hin|Hin].
  - left. destruct (ce_open _ _ _ C e Hin). apply in_map_iff in Hin. destruct Hin as ([n x] & <- & Hin).
    destruct (i_wlock _ I t n x Hin Hd). auto.
  - right. split; [|now apply C]. intros n Hn. apply Hin, in_map_iff. now exists (n, e).
Qed.

Ltac break_step H :=
  repeat match type of H with
         | context [match ?x with _ => _ end] => destruct x eqn:?; try discriminate H
         | context [if ?x then _ else _] => destruct x eqn:?; try discriminate H
         end;
  try (injection H as <-).

(* the branch of step at hand is an instance of one constructor *)
Ltac rule :=
  solve [econstructor; eauto 2 using free_none, sub_map_remove_if, sub_map_remove_key, sub_map_prune_map;
         try discriminate; intros ->; assumption].

Lemma step_trans : forall fixed safe limit st t st',
  step fixed safe limit st t = Some st' -> trans fixed safe st t (txs st t) st'.
Proof.
  intros fixed safe limit st t st' H. unfold step in H.
  destruct (ph (txs st t)) as [|w|w e|w e|w e rl|w c|w c|w c|err rl pr pf] eqn:Hph.
  - destruct (prog (txs st t)) as [|[n ro oc|fl] r] eqn:Hpr; [discriminate| |].
    + destruct (failed (txs st t)); [injection H as <-; rule|].
      destruct safe, (done (txs st t)) eqn:Hd; simpl in H.
      all: try (destruct (lookup n (written (txs st t))) eqn:Hl; [injection H as <-; rule|]).
      all: destruct (free (mlock st)) eqn:Hm; [apply free_none in Hm|discriminate].
      all: destruct (lookup n (mmap st)) eqn:Hl'; [injection H as <-; eapply t_found; eauto; congruence|].
      all: destruct ro, fixed; simpl in H; injection H as <-; first [now apply t_refuse|eapply t_new; eauto].
    + destruct (done (txs st t)) eqn:Hd; [injection H as <-; rule|].
      (* Commit with nothing written is Commit of the empty list *)
      replace st' with (set_tx (commit_all safe (failed (txs st t) || fl) st (written (txs st t))) t (tx_commit (txs st t))).
      * eapply t_commit; eauto using commit_all_eff.
      * destruct (written (txs st t)); [|destruct (free (mlock st)); [|discriminate]]; now injection H.
  - destruct (w_oc w); injection H as <-; try rule.
    all: destruct (limit =? 0)%Z, (w_ro w) eqn:Hro; simpl.
    all: match goal with |- context [mkC _ ?reg _ _] => pose proof (t_create fixed safe st t (txs st t) w reg Hph) as X end.
    all: rewrite Hro in X; exact X.
  - destruct safe; simpl in H; break_step H; rule.
  - break_step H; rule.
  - break_step H; rule.
  - break_step H; rule.
  - break_step H; rule.
  - break_step H; rule.
  - destruct pr; simpl in H; break_step H; rule.
Qed.

(* st' keeps what transaction t relies on in st *)
Record stable (st st' : state) (t : tid) : Prop := {
  s_ref : forall e n, ref (nexte st) (elems st) t e n -> ref (nexte st') (elems st') t e n;
  s_own : forall e, e_owner (elems st e) = Some t -> e_owner (elems st' e) = Some t;
  s_rd : forall e, In t (e_readers (elems st e)) -> In t (e_readers (elems st' e));
  s_wr : forall e, e_writer (elems st e) = Some t ->
           e_writer (elems st' e) = Some t /\ e_wheld (elems st' e) = e_wheld (elems st e);
  s_ml : mlock st = Some t -> mlock st' = Some t
}.

(* The preservation proofs go through the transitions.  [cases H] computes the new
   state; in the Commit case it also rewrites the components Commit leaves alone. *)
Ltac in_commit :=
  match goal with
  | Hc : commit_eff _ _ _ |- _ =>
      rewrite ?(ce_nexte _ _ _ Hc), ?(ce_mlock _ _ _ Hc), ?(ce_txs _ _ _ Hc),
              ?(ce_name _ _ _ Hc), ?(ce_owner _ _ _ Hc), ?(ce_readers _ _ _ Hc)
  end.
Ltac cases H := destruct H; simpl; try in_commit.
(* a transition that leaves the view p of the entry it updates as it was leaves p
   as it was everywhere; a newly allocated slot held the empty element *)
Ltac same I p :=
  rewrite ?(upd_proj _ _ p)
    by (reflexivity || (rewrite (i_fresh _ I _ (le_n _)); reflexivity) ||
        (simpl; match goal with H : ph _ = _ |- _ => rewrite H end; reflexivity)).
(* is x the updated entry? *)
Ltac upd_at x :=
  match goal with
  | |- context [upd _ ?k _ x] =>
      destruct (Nat.eq_dec x k) as [->|?]; [rewrite ?upd_eq|rewrite ?(upd_neq _ _ k _ x) by assumption]
  end.
Ltac splits := repeat match goal with |- _ /\ _ => split end.

Lemma ph_ok_stable : forall st st' t W p, stable st st' t -> ph_ok st t W p -> ph_ok st' t W p.
Proof.
  intros st st' t W p [Sr So Sd Sw Sm].
  assert (R : forall rl, rl_ok (elems st) t rl -> rl_ok (elems st') t rl) by (intros rl H e He; apply Sd, H, He).
  destruct p; simpl; try (intuition auto; fail).
  intros (A & B & C & D). destruct (Sw _ B) as [B' C']. rewrite C'. auto.
Qed.

Lemma trans_txs : forall fixed safe st t st' t', trans fixed safe st t (txs st t) st' ->
  t' <> t -> txs st' t' = txs st t'.
Proof. intros fixed safe st t st' t' H Ht. cases H; now rewrite upd_neq. Qed.

Lemma trans_stable : forall fixed safe st t st' t', Inv0 st -> trans fixed safe st t (txs st t) st' ->
  t' <> t -> stable st st' t'.
Proof.
  intros fixed safe st t st' t' I H Ht.
  destruct H; split; simpl; intros; try (unfold ref in *; in_commit);
    same I e_owner; same I e_readers; same I e_writer; same I e_wheld; auto with c11.
  1: destruct (ce_lock _ _ _ I Hd Hc e) as [(A & _)|(_ & A & B)]; [congruence|rewrite A, B; auto].
  (* what t holds before the step *)
  all: pose proof (i_ph _ I t) as P; rewrite Hph in P; simpl in P; try congruence.
  all: match goal with |- context [upd _ _ _ ?x] => upd_at x end; auto.
  (* a newly allocated slot held the empty element *)
  all: try (rewrite (i_fresh _ I _ (le_n _)) in H; simpl in H; (discriminate || contradiction)).
  - (* rlock *) simpl. auto.
  - (* announce: there was no writer *) congruence.
  - (* wlock: the writer was t *) destruct P as (_ & P & _). congruence.
  - (* runlock *) simpl. apply In_remove_tid. auto.
Qed.

Theorem trans_Inv0 : forall fixed safe st t st', Inv0 st -> trans fixed safe st t (txs st t) st' -> Inv0 st'.
Proof.
  intros fixed safe st t st' I H. pose proof (i_ph _ I t) as P. constructor.
  - (* i_fresh *) intros e.
    cases H; rewrite Hph in P; simpl in P; try apply (i_fresh _ I).
    1: { intros He. rewrite (ce_fresh _ _ _ Hc); [now apply (i_fresh _ I)| |].
         - intros Hin. apply in_map_iff in Hin. destruct Hin as ([n x] & <- & Hin). destruct (i_written _ I _ _ _ Hin). simpl in He. lia.
         - intros k Hk. destruct (i_map _ I _ _ Hk). lia. }
    (* the updated element is allocated: the phase refers to it *)
    all: intros He; rewrite upd_neq; [apply (i_fresh _ I); lia|]; unfold ref in P; try lia.
    + destruct (i_map _ I _ _ Hl). lia.
    + pose proof (reader_lt _ _ _ I (P _ eq_refl)). lia.
  - (* i_map *) intros n e.
    cases H; same I e_name; same I e_owner; try apply (i_map _ I); intros Q.
    1: apply (i_map _ I), (ce_map _ _ _ Hc), Q.
    4-5: apply (i_map _ I), Hsub, Q.
    (* create: the new entry points to the new element *)
    1: apply lookup_reg in Q; destruct Q as [(-> & <- & ->)|Q]; [rewrite upd_eq; auto|].
    all: destruct (i_map _ I _ _ Q) as (a & b & c); rewrite upd_neq by lia; auto.
  - (* i_ph *) intros t'. destruct (Nat.eq_dec t' t) as [->|Ht].
    2: { rewrite (trans_txs _ _ _ _ _ _ H Ht).
         exact (ph_ok_stable _ _ _ _ _ (trans_stable _ _ _ _ _ _ I H Ht) (i_ph _ I t')). }
    pose proof (i_fresh _ I _ (le_n _)) as F0.
    cases H; rewrite upd_eq; cbn; rewrite Hph in P; cbn in P; auto.
    + (* own: the element is one of the written caches *)
      splits; auto with c11; [exact (i_written _ I _ _ _ (lookup_In _ _ _ Hl))|]. right. unfold has_key. now rewrite Hl.
    + (* found: the element is registered *)
      destruct (i_map _ I _ _ Hl) as (a & b & c). apply ref_upd; unfold ref; auto.
    + (* create *)
      destruct (w_ro w), reg; splits; simpl; auto with c11; try discriminate; try (now rewrite upd_eq).
      all: try (intros ? [= <-]; rewrite upd_eq; simpl; auto).
      all: intros _; right; now rewrite has_key_set_key, Nat.eqb_refl.
    + splits; auto with c11.
    + (* rlock *) splits; auto with c11; [|congruence].
      intros ? [= <-]. rewrite upd_eq. simpl. auto.
    + splits; auto with c11; [now rewrite upd_eq|discriminate].
    + (* announce *) rewrite upd_eq. splits; auto with c11.
    + (* wlock *) destruct P as (A & _). splits; auto with c11. right. now rewrite has_key_set_key, Nat.eqb_refl.
    + apply P.
    + (* scrapped_copy *) destruct P as (_ & R & C & _). splits; auto with c11; [now rewrite upd_eq|discriminate].
    + (* select *) destruct P as (A & R & C & D). splits; auto; [discriminate|tauto].
    + (* cb_fail *) destruct P as (A & R & C & D & E). rewrite upd_eq. splits; auto with c11.
    + apply P.
    + apply P.
    + auto with c11.
  - (* i_written *) intros t' n e.
    cases H; rewrite Hph in P; simpl in P; same I written; [unfold ref; in_commit|..];
      try (intros Q; apply (i_written _ I) in Q; auto with c11; fail).
    + (* create: the new entry points to the new element *)
      upd_at t'; simpl; [destruct (w_ro w)|]; intros Q; [|apply In_set_key in Q; destruct Q as [[= -> ->]|Q]|].
      2: apply ref_new; destruct reg; auto.
      all: apply (i_written _ I) in Q; auto with c11.
    + (* wlock: the new entry points to the locked element *)
      upd_at t'; simpl; intros Q; [apply In_set_key in Q; destruct Q as [[= -> ->]|Q]|].
      1: apply ref_upd, P; auto.
      all: apply (i_written _ I) in Q; auto with c11.
  - (* i_reader *) intros e t'.
    cases H; same I e_readers; try (same I (fun T => rl_of (ph T)); apply (i_reader _ I)).
    (* create, rlock, runlock *)
    all: upd_at e; upd_at t'; simpl; intros Q.
    all: try (apply (i_reader _ I) in Q; rewrite ?Hph in Q; simpl in Q; congruence).
    + (* create: t reads the new element *) destruct (w_ro w); [reflexivity|destruct Q].
    + destruct (w_ro w); [destruct Q as [Q|[]]; congruence|destruct Q].
    + (* rlock *) reflexivity.
    + destruct Q as [Q|Q]; [congruence|apply (i_reader _ I), Q].
    + (* runlock *) apply In_remove_tid in Q. tauto.
    + apply In_remove_tid in Q. apply (i_reader _ I), Q.
  - (* i_waiting *) intros e t'.
    cases H; same I e_writer; same I e_wheld.
    1: destruct (ce_lock _ _ _ I Hd Hc e) as [(_ & A & _)|(_ & A & B)]; [congruence|rewrite A, B].
    (* a transaction that is not waiting for a write lock holds none that is not granted *)
    all: try (upd_at t'; [|apply (i_waiting _ I)]; intros Q1 Q2; destruct (i_waiting _ I _ _ Q1 Q2) as [w' Q];
              rewrite Hph in Q; discriminate Q).
    (* create, announce, wlock *)
    all: upd_at e; upd_at t'; simpl; intros Q1 Q2; try congruence; try (apply (i_waiting _ I); assumption).
    all: try (destruct (i_waiting _ I _ _ Q1 Q2) as [w' Q]; rewrite Hph in Q; congruence).
    1-2: destruct (w_ro w); congruence.
    eauto.
  - (* i_held *) intros e.
    cases H; same I e_writer; same I e_wheld; same I e_readers; try apply (i_held _ I).
    1: { destruct (ce_lock _ _ _ I Hd Hc e) as [(_ & _ & A)|(_ & A & B)]; [congruence|]. rewrite A, B. apply (i_held _ I). }
    all: upd_at e; simpl; intros Q; try apply (i_held _ I _ Q); try discriminate.
    + (* create *) destruct (w_ro w); [discriminate|split; [reflexivity|discriminate]].
    + (* rlock: there was no writer *) destruct (i_held _ I _ Q). congruence.
    + (* wlock: the readers have drained *) split; [exact Hr|discriminate].
    + (* runlock *) destruct (i_held _ I _ Q) as [A B]. rewrite A. auto.
  - (* i_wlock *) intros t' n e.
    cases H; rewrite Hph in P; simpl in P; same I written; same I done; same I e_writer; same I e_wheld;
      try apply (i_wlock _ I).
    + upd_at t'; simpl; [discriminate|]. intros Q1 Q2. destruct (i_wlock _ I _ _ _ Q1 Q2) as [A B].
      destruct (ce_lock _ _ _ I Hd Hc e) as [(A' & _)|(_ & A' & B')]; [congruence|]. rewrite A', B'. auto.
    + (* create: the new entry points to the new element, which t write-holds *)
      upd_at t'; simpl; [destruct (w_ro w)|]; intros Q1 Q2; [|apply In_set_key in Q1; destruct Q1 as [[= -> ->]|Q1]|].
      2: { rewrite !upd_eq. auto. }
      all: destruct (i_wlock _ I _ _ _ Q1 Q2) as [A B]; rewrite upd_neq by (pose proof (writer_lt _ _ _ I A); lia); auto.
    + (* announce: the element had no writer *)
      intros Q1 Q2. destruct (i_wlock _ I _ _ _ Q1 Q2) as [A B]. rewrite upd_neq by congruence. auto.
    + (* wlock *)
      upd_at t'; simpl; intros Q1 Q2; [apply In_set_key in Q1; destruct Q1 as [[= -> ->]|Q1]|].
      1: { rewrite !upd_eq. auto. }
      all: destruct (i_wlock _ I _ _ _ Q1 Q2) as [A B]; upd_at e; simpl; auto.
      destruct P as (_ & P & _). split; congruence.
  - (* i_holder *) intros e t'.
    cases H; rewrite Hph in P; simpl in P; same I written; same I e_name; same I e_writer; same I e_wheld;
      try apply (i_holder _ I).
    + destruct (ce_lock _ _ _ I Hd Hc e) as [(_ & A & _)|(_ & A & B)]; [congruence|]. rewrite A, B. apply (i_holder _ I).
    + (* create: t write-holds the new element and has just entered it *)
      upd_at e; simpl; intros Q1 Q2.
      * destruct (w_ro w); [discriminate|]. injection Q1 as <-. rewrite upd_eq. simpl. now rewrite has_key_set_key, Nat.eqb_refl.
      * pose proof (i_holder _ I _ _ Q1 Q2) as Q. upd_at t'; simpl; [destruct (w_ro w)|]; auto.
        rewrite has_key_set_key, Q. apply orb_true_r.
    + intros Q1 Q2. rewrite upd_neq by (pose proof (writer_lt _ _ _ I Q1); lia). now apply (i_holder _ I).
    + (* announce *) upd_at e; simpl; [discriminate|apply (i_holder _ I)].
    + (* wlock *) destruct P as ((_ & Hn & _) & _). upd_at e; simpl; intros Q1 Q2.
      * injection Q1 as <-. rewrite upd_eq. simpl. now rewrite has_key_set_key, Hn, Nat.eqb_refl.
      * pose proof (i_holder _ I _ _ Q1 Q2) as Q. upd_at t'; simpl; auto. rewrite has_key_set_key, Q. apply orb_true_r.
    + intros Q1 Q2. rewrite upd_neq by (pose proof (writer_lt _ _ _ I Q1); lia). now apply (i_holder _ I).
  - (* i_owner *) intros e o.
    cases H; rewrite Hph in P; simpl in P; same I e_owner; same I e_writer; try apply (i_owner _ I).
    1: { destruct (ce_lock _ _ _ I Hd Hc e) as [(_ & A & _)|(_ & A & _)]; rewrite A; auto. apply (i_owner _ I). }
    all: upd_at e; simpl; try apply (i_owner _ I).
    + (* create *) destruct reg, (w_ro w); simpl; intros [= <-]; auto.
    + rewrite (i_fresh _ I _ (le_n _)). auto.
    + (* announce: the element is shared or private to t *) destruct P as (_ & _ & [P|P]); rewrite P; intros [= <-]; auto.
    + (* wlock *) destruct P as ((_ & _ & [P|P]) & _); rewrite P; intros [= <-]; auto.
    + rewrite (i_fresh _ I _ (le_n _)). auto.
  - (* i_mlock *) intros t'.
    cases H.
    all: try (upd_at t'; [|apply (i_mlock _ I)]; intros Q; destruct (i_mlock _ I _ Q) as [w' Q'];
              rewrite Hph in Q'; discriminate Q').
    2-3: discriminate.
    intros [= <-]. rewrite upd_eq. simpl. eauto.
  - (* i_prog *) intros t'.
    cases H; upd_at t'; simpl; try apply (i_prog _ I); try congruence.
    (* t stays inside the same operation *)
    all: intros _; apply (i_prog _ I); rewrite Hph; discriminate.
Qed.

Lemma del_Inv0 : forall st n, Inv0 st -> Inv0 (set_map st (remove_key n (mmap st))).
Proof.
  intros st n I. constructor; simpl; try apply I.
  intros n' e Q. now apply (i_map _ I), (sub_map_remove_key n).
Qed.

Lemma next_cases : forall fixed safe limit st l (P : state -> Prop), P st ->
  (forall t st', trans fixed safe st t (txs st t) st' -> P st') ->
  (forall n, mlock st = None -> P (set_map st (remove_key n (mmap st)))) ->
  P (next fixed safe limit st l).
Proof.
  intros fixed safe limit st l P H0 Ht Hd. unfold next. destruct l as [t|n]; simpl.
  - destruct (step fixed safe limit st t) eqn:E; eauto using step_trans.
  - destruct (free (mlock st)) eqn:F; auto using free_none.
Qed.

Lemma next_Inv0 : forall fixed safe limit st l, Inv0 st -> Inv0 (next fixed safe limit st l).
Proof.
  intros fixed safe limit st l I. apply next_cases; auto using del_Inv0.
  intros t st'. now apply trans_Inv0.
Qed.
Lemma run_Inv0 : forall fixed safe limit ls st, Inv0 st -> Inv0 (run fixed safe limit ls st).
Proof. induction ls; simpl; intros st I; auto. apply IHls. now apply next_Inv0. Qed.

Lemma run_invariant : forall fixed safe limit (P : state -> Prop),
  (forall st t st', Inv0 st -> P st -> trans fixed safe st t (txs st t) st' -> P st') ->
  (forall st n, Inv0 st -> P st -> mlock st = None -> P (set_map st (remove_key n (mmap st)))) ->
  forall ls st, Inv0 st -> P st -> P (run fixed safe limit ls st).
Proof.
  intros fixed safe limit P Ht Hd. induction ls as [|l ls IH]; simpl; intros st I H; auto.
  apply IH; [now apply next_Inv0|]. apply next_cases; eauto.
Qed.

Lemma init_tx : forall progs t,
  txs (init progs) t = match nth_error progs t with Some p => mkT p PIdle [] false false [] | None => notx end.
Proof. reflexivity. Qed.
Lemma init_ph : forall progs t, ph (txs (init progs) t) = PIdle.
Proof. intros. rewrite init_tx. destruct (nth_error progs t); reflexivity. Qed.
Lemma init_written : forall progs t, written (txs (init progs) t) = [].
Proof. intros. rewrite init_tx. destruct (nth_error progs t); reflexivity. Qed.

Lemma init_Inv0 : forall progs, Inv0 (init progs).
Proof.
  intros progs. constructor; intros; try rewrite init_ph in *; try rewrite init_written in *;
    simpl in *; try discriminate; try congruence; try tauto; auto.
Qed.

Lemma reachable_Inv0 : forall fixed safe limit st, reachable fixed safe limit st -> Inv0 st.
Proof. intros fixed safe limit st (progs & ls & ->). apply run_Inv0, init_Inv0. Qed.
