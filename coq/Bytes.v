(* Bytes.v -- byte strings as lists of N, lexicographic order, fixed-width
   big/little-endian encodings with round-trip and order-embedding lemmas.
   Every key, value and id of the models is such a byte string, so nearly every file imports this one. *)
From Coq Require Import List NArith ZArith Lia Bool Arith.
From Coq Require Import ZifyBool ZifyN ZifyNat.
From Semadb Require Import ListFacts.
Import ListNotations.
Open Scope N_scope.

Definition bytes := list N.

Definition is_byte (b : N) : Prop := b < 256.
Definition all_bytes (l : bytes) : Prop := Forall is_byte l.

(* lexicographic comparison = Go's bytes.Compare / string comparison *)
Fixpoint lex_compare (a b : bytes) : comparison :=
  match a, b with
  | [], [] => Eq
  | [], _ :: _ => Lt
  | _ :: _, [] => Gt
  | x :: a', y :: b' =>
      match N.compare x y with
      | Eq => lex_compare a' b'
      | c => c
      end
  end.

Definition lex_lt (a b : bytes) : bool :=
  match lex_compare a b with Lt => true | _ => false end.
Definition lex_le (a b : bytes) : bool :=
  match lex_compare a b with Gt => false | _ => true end.
Definition bytes_eqb (a b : bytes) : bool :=
  match lex_compare a b with Eq => true | _ => false end.

Lemma lex_compare_refl a : lex_compare a a = Eq.
Proof. induction a as [|x a IH]; cbn; [reflexivity|]. rewrite N.compare_refl. exact IH. Qed.

Lemma lex_compare_eq a b : lex_compare a b = Eq <-> a = b.
Proof.
  revert b; induction a as [|x a IH]; intros [|y b]; cbn; try (split; congruence).
  destruct (N.compare_spec x y) as [E|L|G].
  - subst. rewrite IH. split; congruence.
  - split; [discriminate|]. intros H; inversion H; lia.
  - split; [discriminate|]. intros H; inversion H; lia.
Qed.

Lemma lex_compare_antisym a b : lex_compare b a = CompOpp (lex_compare a b).
Proof.
  revert b; induction a as [|x a IH]; intros [|y b]; cbn; try reflexivity.
  rewrite (N.compare_antisym x y).
  destruct (N.compare x y); cbn; auto.
Qed.

Lemma lex_compare_trans_lt a b c :
  lex_compare a b = Lt -> lex_compare b c = Lt -> lex_compare a c = Lt.
Proof.
  revert b c; induction a as [|x a IH]; intros [|y b] [|z c]; cbn; try congruence.
  destruct (N.compare_spec x y) as [E|L|G]; try discriminate;
  destruct (N.compare_spec y z) as [E'|L'|G']; try discriminate; intros H1 H2.
  - subst. rewrite N.compare_refl. eauto.
  - subst. destruct (N.compare_spec y z); try lia; reflexivity.
  - subst. destruct (N.compare_spec x z); try lia; reflexivity.
  - destruct (N.compare_spec x z); try lia; reflexivity.
Qed.

Lemma bytes_eqb_eq a b : bytes_eqb a b = true <-> a = b.
Proof.
  unfold bytes_eqb. rewrite <- lex_compare_eq.
  destruct (lex_compare a b); split; congruence.
Qed.

Lemma bytes_eqb_spec a b : reflect (a = b) (bytes_eqb a b).
Proof. apply iff_reflect. symmetry. apply bytes_eqb_eq. Qed.

Lemma bytes_eqb_refl a : bytes_eqb a a = true.
Proof. now apply bytes_eqb_eq. Qed.

Lemma bytes_eqb_false a b : bytes_eqb a b = false <-> a <> b.
Proof. destruct (bytes_eqb_spec a b); split; congruence. Qed.

Lemma bytes_eqb_neq a b : a <> b -> bytes_eqb a b = false.
Proof. apply bytes_eqb_false. Qed.

Lemma bytes_eqb_sym a b : bytes_eqb a b = bytes_eqb b a.
Proof. destruct (bytes_eqb_spec a b), (bytes_eqb_spec b a); congruence. Qed.

Lemma existsb_bytes_In x l : existsb (bytes_eqb x) l = true <-> In x l.
Proof. apply existsb_eqb_In, bytes_eqb_eq. Qed.

Lemma existsb_bytes_notIn x l : existsb (bytes_eqb x) l = false <-> ~ In x l.
Proof. now rewrite <- existsb_bytes_In, not_true_iff_false. Qed.

Lemma lex_lt_irrefl a : lex_lt a a = false.
Proof. unfold lex_lt. now rewrite lex_compare_refl. Qed.

Lemma lex_lt_trans a b c : lex_lt a b = true -> lex_lt b c = true -> lex_lt a c = true.
Proof.
  unfold lex_lt. destruct (lex_compare a b) eqn:E1; try discriminate.
  destruct (lex_compare b c) eqn:E2; try discriminate. intros _ _.
  now rewrite (lex_compare_trans_lt _ _ _ E1 E2).
Qed.

Lemma lex_total a b : lex_lt a b = true \/ a = b \/ lex_lt b a = true.
Proof.
  unfold lex_lt. rewrite (lex_compare_antisym a b).
  destruct (lex_compare a b) eqn:E; cbn; auto.
  right; left. now apply lex_compare_eq.
Qed.

Lemma lex_le_lt_or_eq a b : lex_le a b = true <-> (lex_lt a b = true \/ a = b).
Proof.
  unfold lex_le, lex_lt. destruct (lex_compare a b) eqn:E; split; intros H; auto; try discriminate.
  - right. now apply lex_compare_eq.
  - destruct H as [H|H]; [discriminate|]. apply lex_compare_eq in H. congruence.
Qed.

Lemma lex_le_not_lt a b : lex_le a b = negb (lex_lt b a).
Proof.
  unfold lex_le, lex_lt. rewrite (lex_compare_antisym a b).
  destruct (lex_compare a b); reflexivity.
Qed.

(* bytes.HasPrefix k p *)
Fixpoint is_prefix (p k : bytes) : bool :=
  match p, k with
  | [], _ => true
  | _ :: _, [] => false
  | x :: p', y :: k' => (x =? y) && is_prefix p' k'
  end.

Lemma is_prefix_spec p k : is_prefix p k = true <-> exists r, k = p ++ r.
Proof.
  revert k; induction p as [|x p IH]; intros k; cbn.
  - split; [eauto|reflexivity].
  - destruct k as [|y k].
    + split; [discriminate|]. intros [r H]; discriminate.
    + rewrite andb_true_iff, N.eqb_eq, IH. split.
      * intros [-> [r ->]]. eauto.
      * intros [r H]. inversion H; subst. eauto.
Qed.

(* big-endian, k bytes wide (binary.BigEndian.PutUint64 for k = 8) *)
Fixpoint be (k : nat) (n : N) : bytes :=
  match k with
  | O => []
  | S k' => (n / 256 ^ N.of_nat k') mod 256 :: be k' (n mod 256 ^ N.of_nat k')
  end.

Definition unbe (l : bytes) : N := fold_left (fun acc b => acc * 256 + b) l 0.

Lemma be_length k n : length (be k n) = k.
Proof. revert n; induction k as [|k IH]; intros n; cbn [be length]; [reflexivity|]. now rewrite IH. Qed.

Lemma be_all_bytes k n : all_bytes (be k n).
Proof.
  revert n; induction k as [|k IH]; intros n; cbn [be]; constructor.
  - unfold is_byte. apply N.mod_lt. lia.
  - apply IH.
Qed.

Lemma pow256_nz k : 256 ^ k <> 0.
Proof. apply N.pow_nonzero. discriminate. Qed.

Lemma pow256_S k : 256 ^ N.of_nat (S k) = 256 * 256 ^ N.of_nat k.
Proof. rewrite Nnat.Nat2N.inj_succ. now rewrite N.pow_succ_r'. Qed.

Lemma unbe_acc l acc :
  fold_left (fun acc b => acc * 256 + b) l acc = acc * 256 ^ N.of_nat (length l) + unbe l.
Proof.
  unfold unbe. revert acc; induction l as [|b l IH]; intros acc.
  - cbn. lia.
  - cbn [fold_left length]. rewrite IH. rewrite (IH (0 * 256 + b)).
    rewrite pow256_S. lia.
Qed.

Lemma unbe_cons b l : unbe (b :: l) = b * 256 ^ N.of_nat (length l) + unbe l.
Proof. unfold unbe at 1. cbn [fold_left]. rewrite unbe_acc. lia. Qed.

(* the leading byte of a number that fits in S k bytes needs no reduction *)
Lemma be_head k n :
  n < 256 ^ N.of_nat (S k) -> (n / 256 ^ N.of_nat k) mod 256 = n / 256 ^ N.of_nat k.
Proof.
  intros Hn. apply N.mod_small, N.div_lt_upper_bound; [apply pow256_nz|].
  now rewrite N.mul_comm, <- pow256_S.
Qed.

Lemma unbe_be k n : n < 256 ^ N.of_nat k -> unbe (be k n) = n.
Proof.
  revert n; induction k as [|k IH]; intros n Hn.
  - apply N.lt_1_r in Hn. now subst.
  - cbn [be]. rewrite unbe_cons, be_length, be_head by exact Hn.
    rewrite IH by apply N.mod_lt, pow256_nz.
    rewrite N.mul_comm. symmetry. apply N.div_mod, pow256_nz.
Qed.

(* comparing two numbers = comparing quotients, then remainders *)
Lemma compare_div_mod n m d : d <> 0 ->
  (n ?= m) = match n / d ?= m / d with Eq => n mod d ?= m mod d | c => c end.
Proof.
  intros Hd. destruct (N.compare_spec (n / d) (m / d)) as [E|L|G].
  - rewrite (N.div_mod n d Hd), (N.div_mod m d Hd) at 1. rewrite E.
    rewrite <- !N2Z.inj_compare, !N2Z.inj_add. apply Z.add_compare_mono_l.
  - apply N.compare_lt_iff, N.nle_gt. intros H. apply (N.div_le_mono _ _ d Hd) in H. lia.
  - apply N.compare_gt_iff, N.nle_gt. intros H. apply (N.div_le_mono _ _ d Hd) in H. lia.
Qed.

Lemma be_compare k n m :
  n < 256 ^ N.of_nat k -> m < 256 ^ N.of_nat k ->
  lex_compare (be k n) (be k m) = N.compare n m.
Proof.
  revert n m; induction k as [|k IH]; intros n m Hn Hm.
  - apply N.lt_1_r in Hn, Hm. now subst.
  - cbn [be lex_compare]. rewrite !be_head by assumption.
    rewrite IH by apply N.mod_lt, pow256_nz.
    symmetry. apply compare_div_mod, pow256_nz.
Qed.

Lemma be_inj k n m :
  n < 256 ^ N.of_nat k -> m < 256 ^ N.of_nat k -> be k n = be k m -> n = m.
Proof. intros Hn Hm E. rewrite <- (unbe_be k n Hn), <- (unbe_be k m Hm). now rewrite E. Qed.

Lemma be_lt_iff k n m :
  n < 256 ^ N.of_nat k -> m < 256 ^ N.of_nat k ->
  (lex_lt (be k n) (be k m) = true <-> n < m).
Proof.
  intros Hn Hm. unfold lex_lt. rewrite be_compare by assumption.
  rewrite <- N.compare_lt_iff. destruct (n ?= m); split; congruence.
Qed.

(* little-endian, k bytes wide (binary.LittleEndian.PutUint64 / PutUint32 for k = 8 / 4) *)
Fixpoint le (k : nat) (n : N) : bytes :=
  match k with
  | O => []
  | S k' => n mod 256 :: le k' (n / 256)
  end.

Fixpoint unle (l : bytes) : N :=
  match l with
  | [] => 0
  | b :: r => b + 256 * unle r
  end.

Lemma le_length k n : length (le k n) = k.
Proof. revert n; induction k as [|k IH]; intros n; cbn [le length]; [reflexivity|]. now rewrite IH. Qed.

Lemma le_all_bytes k n : all_bytes (le k n).
Proof.
  revert n; induction k as [|k IH]; intros n; cbn [le]; constructor.
  - unfold is_byte. apply N.mod_lt. lia.
  - apply IH.
Qed.

Lemma unle_le k n : n < 256 ^ N.of_nat k -> unle (le k n) = n.
Proof.
  revert n; induction k as [|k IH]; intros n Hn.
  - apply N.lt_1_r in Hn. now subst.
  - cbn [le unle]. rewrite pow256_S in Hn.
    rewrite IH by (apply N.div_lt_upper_bound; [discriminate | exact Hn]).
    rewrite N.add_comm. symmetry. apply N.div_mod. discriminate.
Qed.

Lemma le_inj k n m :
  n < 256 ^ N.of_nat k -> m < 256 ^ N.of_nat k -> le k n = le k m -> n = m.
Proof. intros Hn Hm E. rewrite <- (unle_le k n Hn), <- (unle_le k m Hm). now rewrite E. Qed.

Lemma unle_bound l : all_bytes l -> unle l < 256 ^ N.of_nat (length l).
Proof.
  induction 1 as [|b l Hb _ IH]; cbn [unle length].
  - cbn. lia.
  - rewrite pow256_S. unfold is_byte in Hb. lia.
Qed.

Lemma le_unle l : all_bytes l -> le (length l) (unle l) = l.
Proof.
  induction 1 as [|b l Hb Hl IH]; cbn [unle length le]; [reflexivity|].
  rewrite (N.mul_comm 256), N.mod_add, N.div_add by discriminate.
  rewrite N.mod_small, N.div_small by exact Hb. now rewrite N.add_0_l, IH.
Qed.

(* lists of little-endian words of w bytes each (vectors, edge lists) *)
Definition enc_words (w : nat) (xs : list N) : bytes := flat_map (le w) xs.

Fixpoint chunks (n w : nat) (b : bytes) : list bytes :=
  match n with
  | O => []
  | S n' => firstn w b :: chunks n' w (skipn w b)
  end.

(* Go: make([]T, len(b)/w); element i decoded from b[i*w:] *)
Definition dec_words (w : nat) (b : bytes) : list N :=
  map unle (chunks (length b / w) w b).

Lemma enc_words_length w xs : length (enc_words w xs) = (w * length xs)%nat.
Proof.
  induction xs as [|x xs IH]; cbn [enc_words flat_map length]; [lia|].
  rewrite app_length, le_length. fold (enc_words w xs). rewrite IH. lia.
Qed.

Lemma chunks_enc_words w xs :
  chunks (length xs) w (enc_words w xs) = map (le w) xs.
Proof.
  induction xs as [|x xs IH]; cbn [length chunks enc_words flat_map map]; [reflexivity|].
  fold (enc_words w xs).
  rewrite firstn_app, skipn_app, le_length, Nat.sub_diag.
  rewrite firstn_all2 by (rewrite le_length; lia).
  rewrite skipn_all2 by (rewrite le_length; lia).
  cbn [firstn skipn app]. rewrite app_nil_r. now rewrite IH.
Qed.

Lemma dec_enc_words w xs :
  (0 < w)%nat -> Forall (fun x => x < 256 ^ N.of_nat w) xs ->
  dec_words w (enc_words w xs) = xs.
Proof.
  intros Hw Hx. unfold dec_words. rewrite enc_words_length.
  rewrite Nat.mul_comm, Nat.div_mul by lia.
  rewrite chunks_enc_words, map_map.
  induction Hx as [|x xs Hx _ IH]; cbn [map]; [reflexivity|].
  now rewrite unle_le, IH.
Qed.

Lemma enc_words_inj w xs ys :
  (0 < w)%nat ->
  Forall (fun x => x < 256 ^ N.of_nat w) xs -> Forall (fun x => x < 256 ^ N.of_nat w) ys ->
  enc_words w xs = enc_words w ys -> xs = ys.
Proof.
  intros Hw Hx Hy E.
  rewrite <- (dec_enc_words w xs Hw Hx), <- (dec_enc_words w ys Hw Hy). now rewrite E.
Qed.
