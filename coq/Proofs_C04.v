(* Proofs_C04.v -- flat search (C04).  The bounded insertion keeps, worst first, one side of a split of
   the points seen so far (splits, fold_inv); two exact selections of the same candidates report the same
   distances (ksel_split_same_dists); code 0 of ksel_code implies the relational specification; a bucket
   of node keys enumerates the stored ids (yields_bucket, store_complete); a cache in sync hands the fold
   the same pairs warm and cold; the per-id states of a store are closed under all operations by
   computation (reach, cfg_ok_on). *)
From Coq Require Import List NArith ZArith QArith Bool Arith Lia Permutation Sorted.
From Semadb Require Import ListFacts Bytes U64 KeyLayout Model_C19 Proofs_C19 Value Obs Dyadic Model_C01 Model_C02 IdSets Model_C04
  Model_C04M.
Import ListNotations.

Section FoldProofs.
  Context {A : Type}.
  Variable d : A -> Q.
  (* the reversed slice is held worst first *)
  Let R (a b : A) : Prop := (d b <= d a)%Q.

  Lemma bubble_rev_perm r x : Permutation (bubble_rev d r x) (x :: r).
  Proof.
    induction r as [|y r IH]; cbn; [reflexivity|].
    destruct (Qle_bool (d y) (d x)); [reflexivity|]. rewrite IH. apply perm_swap.
  Qed.

  Lemma bubble_rev_length r x : length (bubble_rev d r x) = S (length r).
  Proof. apply (Permutation_length (bubble_rev_perm r x)). Qed.

  Lemma bubble_rev_sorted r x : StronglySorted R r -> StronglySorted R (bubble_rev d r x).
  Proof.
    induction 1 as [|y r Hs IH Hy]; cbn [bubble_rev]; [repeat constructor|].
    destruct (Qle_bool (d y) (d x)) eqn:E.
    - apply Qle_bool_iff in E. repeat constructor; try assumption.
      apply (Forall_impl _ (P := R y)); [|exact Hy]. intros z Hz. exact (Qle_trans _ _ _ Hz E).
    - apply Qle_bool_false in E. constructor; [assumption|].
      apply (Permutation_Forall (Permutation_sym (bubble_rev_perm r x))).
      constructor; [exact (Qlt_le_weak _ _ E)|assumption].
  Qed.

  Lemma sorted_rev r : StronglySorted R r -> nondecreasing (map d (rev r)).
  Proof.
    intros H. apply StronglySorted_rev in H.
    induction H as [|x l Hs IH Hx]; cbn; constructor; [exact IH|]. apply Forall_map. exact Hx.
  Qed.

  Lemma head_worst w r y : StronglySorted R (w :: r) -> In y (w :: r) -> (d y <= d w)%Q.
  Proof.
    intros Hs [<-|Hy]; [apply Qle_refl|].
    apply StronglySorted_inv in Hs as [_ Hw]. rewrite Forall_forall in Hw. now apply Hw.
  Qed.

  (* kept (worst first) and dropped share out what has been seen, and nothing dropped is closer than
     anything kept.  A point joins one side or the other, or the worst kept changes sides. *)
  Definition splits (seen kept dropped : list A) : Prop :=
    Permutation seen (kept ++ dropped) /\ StronglySorted R kept /\
    (forall y c, In y kept -> In c dropped -> (d y <= d c)%Q).

  Lemma splits_drop seen kept dropped x :
    splits seen kept dropped -> (forall y, In y kept -> (d y <= d x)%Q) ->
    splits (seen ++ [x]) kept (x :: dropped).
  Proof.
    intros (Hp & Hs & Hd) Hx. split; [|split; [exact Hs|]].
    - rewrite <- Permutation_cons_append, Hp. apply Permutation_middle.
    - intros y c Hy [<-|Hc]; auto.
  Qed.

  Lemma splits_keep seen kept dropped x :
    splits seen kept dropped -> (forall c, In c dropped -> (d x <= d c)%Q) ->
    splits (seen ++ [x]) (bubble_rev d kept x) dropped.
  Proof.
    intros (Hp & Hs & Hd) Hx. split; [|split; [now apply bubble_rev_sorted|]].
    - now rewrite <- Permutation_cons_append, Hp, (bubble_rev_perm kept x).
    - intros y c Hy Hc. apply (Permutation_in _ (bubble_rev_perm kept x)) in Hy as [<-|Hy]; auto.
  Qed.

  Lemma splits_evict seen w kept dropped : splits seen (w :: kept) dropped -> splits seen kept (w :: dropped).
  Proof.
    intros (Hp & Hs & Hd). split; [|split; [now apply StronglySorted_inv in Hs|]].
    - rewrite Hp. apply Permutation_middle.
    - intros y c Hy [<-|Hc]; [apply (head_worst w kept y Hs); now right|]. apply Hd; [now right|exact Hc].
  Qed.

  (* after the prefix `seen` of the enumeration the slice (reversed) is r:
     `ksel_split` of what has been seen, up to the reversal *)
  Definition fold_inv (limit : nat) (seen r : list A) : Prop :=
    exists dropped, splits seen r dropped /\ length r = Nat.min limit (length seen).

  Lemma fold_inv_step limit seen r x :
    (0 < limit)%nat -> fold_inv limit seen r ->
    exists r', flat_step d limit r x = Some r' /\ fold_inv limit (seen ++ [x]) r'.
  Proof.
    intros Hl (dropped & Hsp & Hlen).
    pose proof (Permutation_length (proj1 Hsp)) as Hn. rewrite app_length in Hn.
    unfold flat_step, fold_inv. rewrite app_length. cbn [length].
    destruct (Nat.eqb_spec (length r) limit) as [E|E].
    - destruct r as [|w r']; cbn [length] in *; [lia|].
      destruct (Qle_bool (d w) (d x)) eqn:Ew; (eexists; split; [reflexivity|]).
      + (* full, and x is no closer than the worst kept *)
        apply Qle_bool_iff in Ew. exists (x :: dropped). split; [|cbn [length]; lia].
        apply splits_drop; [exact Hsp|]. intros y Hy.
        apply Qle_trans with (d w); [exact (head_worst w r' y (proj1 (proj2 Hsp)) Hy)|exact Ew].
      + (* full, and x is strictly closer: it takes the place of the worst kept *)
        apply Qle_bool_false in Ew. exists (w :: dropped). split; [|rewrite bubble_rev_length; lia].
        apply splits_keep; [now apply splits_evict|]. intros c [<-|Hc]; [now apply Qlt_le_weak|].
        apply Qle_trans with (d w); [now apply Qlt_le_weak|]. apply Hsp; [now left|exact Hc].
    - (* below capacity nothing has been dropped yet *)
      assert (dropped = []) as -> by (apply length_zero_iff_nil; lia).
      eexists; split; [reflexivity|]. exists [].
      split; [now apply splits_keep|rewrite bubble_rev_length; lia].
  Qed.

  Lemma fold_inv_run limit order : forall seen r,
    (0 < limit)%nat -> fold_inv limit seen r ->
    exists r', flat_run_rev d limit r order = Some r' /\ fold_inv limit (seen ++ order) r'.
  Proof.
    induction order as [|x o IH]; intros seen r Hl Hi; cbn.
    - exists r. now rewrite app_nil_r.
    - destruct (fold_inv_step limit seen r x Hl Hi) as (r1 & E1 & Hi1). rewrite E1.
      destruct (IH _ _ Hl Hi1) as (r2 & E2 & Hi2). exists r2. now rewrite <- app_assoc in Hi2.
  Qed.

  (* the result, front first, splits the enumeration into the answer and what was left out *)
  Lemma flat_run_split limit order :
    (0 < limit)%nat ->
    exists res, flat_run d limit order = Some res /\ ksel_split d limit order res.
  Proof.
    intros Hl. destruct (fold_inv_run limit order [] [] Hl) as (r & E & dropped & (Hp & Hs & Hd) & Hlen).
    { exists []. split; [|symmetry; apply Nat.min_0_r]. split; [reflexivity|]. split; [constructor|]. intros ? ? []. }
    unfold flat_run. rewrite E. exists (rev r). split; [reflexivity|]. exists dropped.
    split; [now rewrite <- Permutation_rev|]. split; [now rewrite rev_length|]. split; [now apply sorted_rev|].
    intros y c Hy. apply in_rev in Hy. now apply Hd.
  Qed.

  Lemma flat_run_zero l : flat_run d 0 l = match l with [] => Some [] | _ :: _ => None end.
  Proof. now destruct l. Qed.
End FoldProofs.

Lemma ksel_split_perm {A} (d : A -> Q) k c1 c2 res :
  Permutation c1 c2 -> ksel_split d k c1 res -> ksel_split d k c2 res.
Proof.
  intros Hp (dr & H). exists dr. now rewrite <- Hp.
Qed.

Lemma ksel_split_ksel {A I} (id : A -> I) (d : A -> Q) k cands res :
  NoDup (map id cands) -> ksel_split d k cands res -> ksel id d k cands res.
Proof.
  intros Hnd (dr & Hp & Hlen & Hs & Hd). rewrite Hp, map_app in Hnd.
  split; [now apply NoDup_app_iff in Hnd|]. split; [|repeat split; try assumption].
  - intros x Hx. apply (Permutation_in _ (Permutation_sym Hp)), in_or_app. now left.
  - intros c Hc Hn r Hr. apply (Permutation_in _ Hp), in_app_or in Hc as [Hc|Hc]; [contradiction|now apply Hd].
Qed.

(* with the pre-filter: the candidates are the enumerated points that pass it *)
Lemma flat_search_split {A} (d : A -> Q) (keep : A -> bool) limit order cands :
  Permutation order cands -> (0 < limit)%nat ->
  exists res, flat_search d keep limit order = Some res /\ ksel_split d limit (filter keep cands) res.
Proof.
  intros Hp Hl. destruct (flat_run_split d limit (filter keep order) Hl) as (res & E & Hk).
  exists res. split; [exact E|]. revert Hk. now apply ksel_split_perm, Permutation_filter.
Qed.

(* the distances of an exact selection are sorted and below those of what was left out *)
Lemma ksel_split_dists {A} (d : A -> Q) k cands res :
  ksel_split d k cands res ->
  exists rest, Permutation (map d cands) (map d res ++ rest) /\ length (map d res) = Nat.min k (length cands) /\
    StronglySorted Qle (map d res) /\ (forall x y, In x (map d res) -> In y rest -> (x <= y)%Q).
Proof.
  intros (dr & Hp & Hl & Hs & Hd). exists (map d dr). rewrite <- map_app, map_length.
  split; [now apply Permutation_map|]. split; [exact Hl|]. split; [exact Hs|].
  intros x y Hx Hy. apply in_map_iff in Hx as (a & <- & Ha), Hy as (b & <- & Hb). now apply Hd.
Qed.

Theorem ksel_split_same_dists {A} (d : A -> Q) k cands r1 r2 :
  NoDup cands -> ksel_split d k cands r1 -> ksel_split d k cands r2 ->
  Forall2 Qeq (map d r1) (map d r2).
Proof.
  intros _ H1 H2.
  apply ksel_split_dists in H1 as (t1 & P1 & L1 & S1 & D1), H2 as (t2 & P2 & L2 & S2 & D2).
  rewrite P1 in P2. rewrite <- L1 in L2.
  apply Forall2_nth; [now symmetry|]. intros p q Hp.
  pose proof (sorted_prefix_le Qle Qle_bool Qle_refl Qle_trans Qle_bool_iff) as U. apply Qle_antisym.
  - apply (U _ t1 _ t2); try assumption. now rewrite L2.
  - apply (U _ t2 _ t1); try assumption; [now symmetry|now rewrite L2].
Qed.

(* two searches over the same points in any two orders: exact selections of
   the same candidates, with the same distances *)
Lemma flat_search_same_dists {A I} (id : A -> I) (d : A -> Q) (keep : A -> bool) limit o1 o2 cands :
  NoDup (map id cands) -> (0 < limit)%nat -> Permutation o1 cands -> Permutation o2 cands ->
  exists r1 r2,
    flat_search d keep limit o1 = Some r1 /\ flat_search d keep limit o2 = Some r2 /\
    ksel id d limit (filter keep cands) r1 /\ ksel id d limit (filter keep cands) r2 /\
    Forall2 Qeq (map d r1) (map d r2).
Proof.
  intros Hnd Hl Hp1 Hp2.
  destruct (flat_search_split d keep limit o1 cands Hp1 Hl) as (r1 & E1 & Hk1).
  destruct (flat_search_split d keep limit o2 cands Hp2 Hl) as (r2 & E2 & Hk2).
  pose proof (NoDup_map_filter id keep cands Hnd) as Hndf.
  exists r1, r2. split; [exact E1|]. split; [exact E2|].
  split; [now apply ksel_split_ksel|]. split; [now apply ksel_split_ksel|].
  apply (ksel_split_same_dists d limit (filter keep cands)); try assumption.
  now apply NoDup_map_inv in Hndf.
Qed.

Lemma find_cand_Some id cs c : find_cand id cs = Some c -> In c cs /\ c_id c = id.
Proof.
  induction cs as [|c0 cs IH]; cbn; [discriminate|].
  destruct (bytes_eqb id (c_id c0)) eqn:E.
  - intros [= <-]. apply bytes_eqb_eq in E. now split; [left|].
  - intros H. destruct (IH H). now split; [right|].
Qed.

(* find_cand returns the first candidate with that id; with distinct ids, the only one *)
Lemma find_cand_NoDup cs c : NoDup (map c_id cs) -> In c cs -> find_cand (c_id c) cs = Some c.
Proof.
  induction cs as [|c0 cs IH]; cbn; intros Hnd Hin; [contradiction|].
  apply NoDup_cons_iff in Hnd as [Hx Hl]. destruct Hin as [->|Hin].
  - now rewrite (proj2 (bytes_eqb_eq _ _) eq_refl).
  - destruct (bytes_eqb (c_id c) (c_id c0)) eqn:E; [|now apply IH].
    apply bytes_eqb_eq in E. destruct Hx. rewrite <- E. now apply in_map.
Qed.

Lemma sorted_q_SSorted l : sorted_q l = true -> StronglySorted Qle l.
Proof.
  intros H. apply Sorted_StronglySorted; [exact Qle_trans|].
  induction l as [|x [|y r] IH]; [repeat constructor..|].
  cbn in H. apply andb_true_iff in H as [Hxy Hs].
  constructor; [now apply IH|constructor; now apply Qle_bool_iff].
Qed.

Lemma row_dists_In rows r q : In r rows -> row_dist r = Some q -> In q (row_dists rows).
Proof.
  intros Hr Hq. apply in_flat_map. exists r. split; [assumption|]. rewrite Hq. now left.
Qed.

(* ksel_code is a chain of guards `if negb b then code else ...` *)
Lemma guard_passed (b : bool) (code rest : N) :
  code <> 0%N -> (if negb b then code else rest) = 0%N -> b = true /\ rest = 0%N.
Proof. now destruct b. Qed.

Theorem ksel_code_sound k cs rows : ksel_code k cs rows = 0%N -> rows_ksel k cs rows.
Proof.
  unfold ksel_code. fold (row_dists rows). intros H.
  apply guard_passed in H as [Hnd H]; [|discriminate].
  apply guard_passed in H as [_ H]; [|discriminate].
  apply guard_passed in H as [_ H]; [|discriminate].
  apply guard_passed in H as [Hok H]; [|discriminate].
  apply guard_passed in H as [Hlen H]; [|discriminate].
  apply guard_passed in H as [Hs H]; [|discriminate].
  apply guard_passed in H as [Hw _]; [|discriminate].
  rewrite forallb_forall in Hok, Hw. apply sorted_q_SSorted in Hs.
  split; [now apply nodup_ids_NoDup|]. split; [|split; [now apply N.eqb_eq|split; [exact Hs|]]].
  - intros r Hr. specialize (Hok r Hr).
    destruct (find_cand (r_id r) cs) as [c|] eqn:Ec; [|discriminate].
    destruct (row_dist r) as [q|]; [|discriminate].
    destruct (find_cand_Some _ _ _ Ec). exists c, q. auto.
  - (* a row is at most as far as the last row, which the guard compares with q *)
    intros c q Hc Hn Hq r dr Hr Hdr. specialize (Hw c Hc).
    apply orb_true_iff in Hw as [Hw|Hw]; [now apply mem_bytes_In in Hw|].
    rewrite Hq in Hw. apply Qle_bool_iff in Hw.
    apply Qle_trans with (last (row_dists rows) 0%Q); [|exact Hw].
    apply (StronglySorted_last Qle _ _ Qle_refl Hs). now apply (row_dists_In rows r).
Qed.

Lemma Forall2_Qeq_sorted l1 l2 : Forall2 Qeq l1 l2 -> StronglySorted Qle l2 -> StronglySorted Qle l1.
Proof.
  induction 1 as [|x y l1 l2 Hxy HF IH]; intros Hs; constructor; apply StronglySorted_inv in Hs as [Hs Hy].
  - now apply IH.
  - apply Forall_forall. intros z Hz. destruct (Forall2_In_l _ _ _ _ HF Hz) as (w & Hw & Hzw).
    rewrite Forall_forall in Hy. rewrite Hxy, Hzw. now apply Hy.
Qed.

Lemma sel_of_matches cs rows :
  all_exact cs ->
  (forall r, In r rows -> exists c q, In c cs /\ c_id c = r_id r /\ find_cand (r_id r) cs = Some c /\
                                   row_dist r = Some q /\ dist_ok c q = true) ->
  Forall2 (row_matches cs) (sel_of cs rows) rows.
Proof.
  intros Hex. induction rows as [|r rows IH]; intros H; cbn; [constructor|].
  destruct (H r (or_introl eq_refl)) as (c & q & Hc & Hid & Hf & Hq & Hok).
  rewrite Hf. constructor; [|apply IH; intros r' Hr'; apply H; now right].
  repeat split; try assumption. exists q. split; [assumption|].
  unfold dist_ok in Hok. unfold cand_q. destruct (Hex c Hc) as (q' & Hq'). rewrite Hq' in *.
  now apply Qeq_bool_iff in Hok.
Qed.

Lemma matches_dists cs sel rows :
  Forall2 (row_matches cs) sel rows -> Forall2 Qeq (map cand_q sel) (row_dists rows).
Proof.
  induction 1 as [|c r sel rows (_ & _ & q & Hq & E) HF IH]; [constructor|].
  unfold row_dists in *. cbn. rewrite Hq. constructor; [now symmetry|assumption].
Qed.

Theorem ksel_code_ksel k cs rows :
  NoDup (map c_id cs) -> all_exact cs -> ksel_code k cs rows = 0%N ->
  ksel c_id cand_q (N.to_nat k) cs (sel_of cs rows) /\ Forall2 (row_matches cs) (sel_of cs rows) rows.
Proof.
  intros Hnd Hex H. destruct (ksel_code_sound _ _ _ H) as (H1 & H2 & H3 & H4 & H5).
  pose proof (sel_of_matches cs rows Hex H2) as HF. split; [|exact HF].
  assert (Hids : map c_id (sel_of cs rows) = map r_id rows).
  { clear -HF. induction HF as [|c r sel rows' (_ & Hid & _) HF IH]; cbn; congruence. }
  assert (Hincl : incl (sel_of cs rows) cs).
  { intros c Hc. now destruct (Forall2_In_l _ _ _ _ HF Hc) as (r & _ & Hm & _). }
  split; [now rewrite Hids|]. split; [exact Hincl|]. split; [|split].
  - rewrite <- (map_length c_id), Hids, map_length. lia.
  - apply (Forall2_Qeq_sorted _ _ (matches_dists _ _ _ HF)). exact H4.
  - intros c Hc Hn c' Hc'.
    destruct (Forall2_In_l _ _ _ _ HF Hc') as (r & Hr & _ & _ & dr & Hdr & Edr).
    destruct (Hex c Hc) as (q & Hq). unfold cand_q at 2. rewrite Hq, <- Edr.
    refine (H5 c q Hc _ Hq r dr Hr Hdr).
    (* a selected candidate with the id of c would be c itself *)
    rewrite <- Hids, in_map_iff. intros (c2 & E & Hc2). apply Hn.
    pose proof (find_cand_NoDup cs c Hnd Hc) as F. pose proof (find_cand_NoDup cs c2 Hnd (Hincl c2 Hc2)) as F2.
    congruence.
Qed.

Open Scope N_scope.

Lemma id_from_key_node_key accepted id s :
  id < two64 ->
  id_from_key accepted (node_key id s) = if existsb (N.eqb s) accepted then Some id else None.
Proof.
  intros Hid. induction accepted as [|a r IH]; cbn [id_from_key existsb]; [reflexivity|].
  destruct (N.eqb_spec s a) as [->|Hne]; cbn [orb].
  - now rewrite node_key_roundtrip.
  - rewrite node_key_other_suffix by assumption. exact IH.
Qed.

Lemma id_from_key_foreign accepted k : foreign k -> id_from_key accepted k = None.
Proof. intros H. induction accepted as [|a r IH]; cbn [id_from_key]; [reflexivity|]. now rewrite H. Qed.

Lemma yields_In_map accepted keys id :
  yields accepted keys id <-> In (Some id) (map (id_from_key accepted) keys).
Proof. unfold yields. rewrite in_map_iff. split; intros (k & ? & ?); now exists k. Qed.

Lemma yields_cons accepted k keys id :
  yields accepted (k :: keys) id <-> id_from_key accepted k = Some id \/ yields accepted keys id.
Proof. now rewrite !yields_In_map. Qed.

Lemma yields_app accepted k1 k2 id :
  yields accepted (k1 ++ k2) id <-> yields accepted k1 id \/ yields accepted k2 id.
Proof. rewrite !yields_In_map, map_app. apply in_app_iff. Qed.

Lemma yields_perm accepted k1 k2 id : Permutation k1 k2 -> yields accepted k1 id -> yields accepted k2 id.
Proof. rewrite !yields_In_map. intros Hp. now apply Permutation_in, Permutation_map. Qed.

Lemma yields_foreign accepted ks id : (forall k, In k ks -> foreign k) -> ~ yields accepted ks id.
Proof. intros H (k & Hk & E). rewrite (id_from_key_foreign accepted k (H k Hk)) in E. discriminate. Qed.

Lemma scan_ids_spec accepted keys : forall have id,
  In id (scan_ids accepted have keys) <-> ~ In id have /\ yields accepted keys id.
Proof.
  induction keys as [|k r IH]; intros have id; cbn [scan_ids]; [|rewrite yields_cons].
  - split; [contradiction|]. intros (_ & k & [] & _).
  - destruct (id_from_key accepted k) as [i|] eqn:Ek.
    2:{ rewrite IH. split; [intros []|intros [? [[=]|?]]]; auto. }
    destruct (existsb (N.eqb i) have) eqn:Eh.
    + apply existsb_Neqb_In in Eh. rewrite IH.
      split; [intros []|intros [? [[= ->]|?]]]; auto. contradiction.
    + assert (Hni : ~ In i have) by (rewrite <- existsb_Neqb_In; congruence).
      cbn [In]. rewrite IH, not_in_cons. split.
      * intros [<-|[[_ Hn] Hy]]; auto.
      * intros [Hn [[= <-]|Hy]]; [now left|]. destruct (N.eq_dec i id); auto.
Qed.

Lemma scan_ids_NoDup accepted keys : forall have, NoDup (scan_ids accepted have keys).
Proof.
  induction keys as [|k r IH]; intros have; cbn; [constructor|].
  destruct (id_from_key accepted k) as [i|]; [|apply IH].
  destruct (existsb (N.eqb i) have); [apply IH|].
  constructor; [|apply IH]. rewrite scan_ids_spec. intros [Hn _]. apply Hn. now left.
Qed.

Lemma enum_ids_In accepted keys id : In id (enum_ids accepted keys) <-> yields accepted keys id.
Proof. unfold enum_ids. rewrite scan_ids_spec. cbn. tauto. Qed.

(* with a cache: non-deleted cached ids, and what the bucket yields outside the cache *)
Lemma enum_ids_cache_spec {V} accepted keys (c : cache V) id :
  In id (enum_ids_cache accepted keys c) <->
  (exists e, In (id, e) c /\ ce_deleted e = false) \/ (~ In id (cache_ids c) /\ yields accepted keys id).
Proof.
  unfold enum_ids_cache. rewrite in_app_iff, scan_ids_spec.
  assert (H : In id (map fst (live_items c)) <-> exists e, In (id, e) c /\ ce_deleted e = false);
    [|now rewrite H].
  unfold live_items. rewrite in_map_iff. split.
  - intros ((i, v) & <- & Hin). apply in_flat_map in Hin as ((i', e) & Hin & Hx).
    cbn in Hx. destruct (ce_deleted e) eqn:Ed; [contradiction|]. destruct Hx as [[= <- <-]|[]]. now exists e.
  - intros (e & Hin & Ed). exists (id, ce_val e). split; [reflexivity|]. apply in_flat_map.
    exists (id, e). split; [assumption|]. cbn. rewrite Ed. now left.
Qed.

Lemma threshold_key_foreign : foreign bq_threshold_key.
Proof. intros s. reflexivity. Qed.

(* a bucket whose point keys are node keys: point x, of id `pid x`, is present
   under the suffixes `sufs x`; it is found iff one of them is accepted *)
Lemma yields_bucket {X} accepted (f : X -> list bytes) (pid : X -> N) (sufs : X -> list N) items keys id :
  ids_ok (map pid items) ->
  (forall x, f x = map (node_key (pid x)) (sufs x)) ->
  bucket_of keys (flat_map f items) ->
  (yields accepted keys id <-> exists x s, In x items /\ In s (sufs x) /\ pid x = id /\ In s accepted).
Proof.
  intros Hok Hf (other & Hp & Hother). split.
  - intros Hy. apply (yields_perm _ _ _ _ Hp), yields_app in Hy as [(k & Hin & E)|Hy];
      [|now apply yields_foreign in Hy].
    apply in_flat_map in Hin as (x & Hx & Hin). rewrite Hf in Hin. apply in_map_iff in Hin as (s & <- & Hs).
    rewrite id_from_key_node_key in E by now apply Hok, in_map.
    destruct (existsb (N.eqb s) accepted) eqn:Ea; [|discriminate]. injection E as E.
    apply existsb_Neqb_In in Ea. exists x, s. auto.
  - intros (x & s & Hx & Hs & <- & Ha). apply (yields_perm _ _ _ _ (Permutation_sym Hp)), yields_app. left.
    exists (node_key (pid x) s). split.
    + apply in_flat_map. exists x. split; [assumption|]. rewrite Hf. now apply in_map.
    + rewrite id_from_key_node_key by now apply Hok, in_map. apply existsb_Neqb_In in Ha. now rewrite Ha.
Qed.

(* a cold ForEach visits exactly these ids, each once *)
Definition enumerates (accepted : list N) (keys : list bytes) (ids : list N) : Prop :=
  NoDup (enum_ids accepted keys) /\ forall id, In id (enum_ids accepted keys) <-> In id ids.

Lemma store_complete {X} accepted (f : X -> list bytes) (pid : X -> N) (sufs : X -> list N) items keys :
  ids_ok (map pid items) ->
  (forall x, f x = map (node_key (pid x)) (sufs x)) ->
  (* the invariant: every stored point has a key under an accepted suffix *)
  (forall x, In x items -> exists s, In s (sufs x) /\ In s accepted) ->
  bucket_of keys (flat_map f items) -> enumerates accepted keys (map pid items).
Proof.
  intros Hok Hf Hinv Hb. split; [apply scan_ids_NoDup|]. intros id.
  rewrite enum_ids_In, (yields_bucket accepted f pid sufs items keys id Hok Hf Hb), in_map_iff. split.
  - intros (x & s & Hx & _ & E & _). now exists x.
  - intros (x & E & Hx). destruct (Hinv x Hx) as (s & Hs & Ha). now exists x, s.
Qed.

Lemma plain_keys_flat ids : plain_keys ids = flat_map (fun id => [node_key id suf_v]) ids.
Proof. unfold plain_keys. induction ids as [|x l IH]; cbn; [reflexivity|]. now rewrite IH. Qed.

(* plainPoint and productQuantizedPoint always write 'v': any IdFromKey that accepts it will do *)
Lemma enum_plain accepted :
  existsb (N.eqb suf_v) accepted = true ->
  forall ids keys, ids_ok ids -> bucket_of keys (plain_keys ids) -> enumerates accepted keys ids.
Proof.
  intros Hv ids keys Hok Hb. apply existsb_Neqb_In in Hv.
  rewrite plain_keys_flat in Hb. rewrite <- (map_id ids) in Hok |- *.
  refine (store_complete accepted _ (fun id => id) (fun _ => [suf_v]) ids keys Hok _ _ Hb).
  - reflexivity.
  - intros x _. exists suf_v. now split; [left|].
Qed.

Lemma enum_product accepted :
  existsb (N.eqb suf_v) accepted = true ->
  forall (items : list (N * bool)) keys, ids_ok (map fst items) -> bucket_of keys (product_keys items) ->
  enumerates accepted keys (map fst items).
Proof.
  intros Hv items keys Hok Hb. apply existsb_Neqb_In in Hv.
  refine (store_complete accepted _ fst (fun it : N * bool => if snd it then [suf_q; suf_v] else [suf_v]) items keys Hok _ _ Hb).
  - intros [i b]. now destruct b.
  - intros [i b] _. exists suf_v. destruct b; cbn; tauto.
Qed.

Definition bq_sufs (s : bq_keys) : list N :=
  match s with BQ_v => [suf_v] | BQ_q => [suf_q] | BQ_qv => [suf_q; suf_v] end.

Lemma binary_keys_sufs (it : N * bq_keys) :
  match snd it with
  | BQ_v => [node_key (fst it) suf_v]
  | BQ_q => [node_key (fst it) suf_q]
  | BQ_qv => [node_key (fst it) suf_q; node_key (fst it) suf_v]
  end = map (node_key (fst it)) (bq_sufs (snd it)).
Proof. now destruct (snd it). Qed.

(* a binaryQuantizedPoint may be present under 'q' only: IdFromKey has to accept both *)
Lemma enum_binary accepted :
  existsb (N.eqb suf_q) accepted = true -> existsb (N.eqb suf_v) accepted = true ->
  forall (items : list (N * bq_keys)) keys, ids_ok (map fst items) -> bucket_of keys (binary_keys items) ->
  enumerates accepted keys (map fst items).
Proof.
  intros Hq Hv items keys Hok Hb. apply existsb_Neqb_In in Hq, Hv.
  refine (store_complete accepted _ fst (fun it : N * bq_keys => bq_sufs (snd it)) items keys Hok binary_keys_sufs _ Hb).
  intros [i b] _. destruct b; cbn; eauto.
Qed.

(* ... and if it does not accept 'q', points stored under 'q' only are not enumerated at all *)
Lemma enum_binary_q_only accepted :
  ~ In suf_q accepted ->
  forall (items : list (N * bq_keys)) keys,
  (forall it, In it items -> snd it = BQ_q) ->
  ids_ok (map fst items) -> bucket_of keys (binary_keys items) ->
  enum_ids accepted keys = [].
Proof.
  intros Hna items keys Hq Hok Hb. apply incl_l_nil. intros id Hin.
  apply enum_ids_In, (yields_bucket accepted _ fst (fun it : N * bq_keys => bq_sufs (snd it)) items keys id Hok binary_keys_sufs Hb) in Hin
    as (x & s & Hx & Hs & _ & Ha).
  rewrite (Hq x Hx) in Hs. destruct Hs as [<-|[]]. contradiction.
Qed.

Lemma plain_accepts_v : existsb (N.eqb suf_v) plain_suffixes = true.
Proof. vm_compute. reflexivity. Qed.
(* computed on the generated constant: fails if IdFromKey stops accepting 'q' (defect F3) or 'v' *)
Lemma bq_accepts_q : existsb (N.eqb suf_q) bq_idfromkey_suffixes = true.
Proof. vm_compute. reflexivity. Qed.
Lemma bq_accepts_v : existsb (N.eqb suf_v) bq_idfromkey_suffixes = true.
Proof. vm_compute. reflexivity. Qed.

Lemma read_all_perm {V} (read : N -> option V) ids ids' :
  Permutation ids ids' -> forall l, read_all read ids = Some l ->
  exists l', read_all read ids' = Some l' /\ Permutation l l'.
Proof.
  induction 1 as [|i ids ids' Hp IH|i j ids|ids ids' ids'' Hp IH Hp' IH']; cbn; intros l E.
  - now exists l.
  - destruct (read i) as [v|], (read_all read ids) as [l0|]; try discriminate. injection E as <-.
    destruct (IH l0 eq_refl) as (l' & -> & Hl). exists ((i, v) :: l'). now split; [|constructor].
  - destruct (read j) as [vj|], (read i) as [vi|], (read_all read ids) as [l0|]; try discriminate.
    injection E as <-. eexists. split; [reflexivity|apply perm_swap].
  - destruct (IH l E) as (l' & E' & Hl). destruct (IH' l' E') as (l'' & E'' & Hl').
    exists l''. split; [assumption|now transitivity l'].
Qed.

(* no deleted entry, every value what ReadFrom decodes: reading the cached ids again gives the cache *)
Lemma read_all_live {V} (read : N -> option V) (c : cache V) :
  (forall id e, In (id, e) c -> ce_deleted e = false) ->
  (forall id e, In (id, e) c -> read id = Some (ce_val e)) ->
  read_all read (cache_ids c) = Some (live_items c) /\ map fst (live_items c) = cache_ids c.
Proof.
  induction c as [|[i e] c IH]; intros Hlive Hval; [now split|].
  destruct IH as [E1 E2]; [intros j e' Hin; apply (Hlive j e'); now right|intros j e' Hin; apply Hval; now right|].
  unfold cache_ids, live_items in *. cbn. rewrite (Hlive i e), (Hval i e), E1 by now left.
  cbn. rewrite E2. now split.
Qed.

(* a cache in sync: the warm ForEach hands over the cache itself, the cold one reads the same pairs again *)
Lemma enum_items_in_sync {V} accepted (read : N -> option V) keys (c : cache V) :
  in_sync accepted read keys c ->
  exists warm cold,
    enum_items accepted read keys c = Some warm /\
    enum_items accepted read keys [] = Some cold /\
    NoDup (map fst warm) /\ Permutation warm cold.
Proof.
  intros [Hnd Hlive Hval Hall Hkeys]. unfold enum_items.
  destruct (read_all_live read c Hlive Hval) as [Er Hfst].
  (* cold: the scan finds the cached ids, in some order *)
  assert (Hp : Permutation (cache_ids c) (enum_ids accepted keys)).
  { apply NoDup_Permutation; [assumption|apply scan_ids_NoDup|].
    intros id. rewrite enum_ids_In. split; [apply Hkeys|apply Hall]. }
  destruct (read_all_perm read _ _ Hp _ Er) as (cold & Ec & Hpc).
  exists (live_items c), cold. unfold enum_ids in Ec. cbn [cache_ids map live_items flat_map app]. rewrite Ec, Hfst.
  split; [|now repeat split].
  (* warm: the scan finds nothing new *)
  rewrite (incl_l_nil (l := scan_ids accepted (cache_ids c) keys)); [cbn; now rewrite app_nil_r|].
  intros i Hin. apply scan_ids_spec in Hin as [Hn Hy]. now apply Hn, Hall.
Qed.

Definition kentry_eqb (a b : kentry) : bool :=
  Bool.eqb (ke_deleted a) (ke_deleted b) && Bool.eqb (ke_dirty a) (ke_dirty b) &&
  Bool.eqb (ke_vec a) (ke_vec b) && Bool.eqb (ke_code a) (ke_code b).
Definition feqb (a b : fstate) : bool :=
  match f_entry a, f_entry b with
  | Some x, Some y => kentry_eqb x y
  | None, None => true
  | _, _ => false
  end && Bool.eqb (f_q a) (f_q b) && Bool.eqb (f_v a) (f_v b) &&
  Bool.eqb (f_trained a) (f_trained b) && Bool.eqb (f_live a) (f_live b).

Lemma kentry_eqb_eq a b : kentry_eqb a b = true -> a = b.
Proof.
  unfold kentry_eqb. rewrite !andb_true_iff. intros [[[H1 H2] H3] H4].
  apply Bool.eqb_prop in H1, H2, H3, H4. destruct a, b. cbn in *. now subst.
Qed.
Lemma feqb_eq a b : feqb a b = true <-> a = b.
Proof.
  unfold feqb. split.
  - rewrite !andb_true_iff. intros [[[[H0 H1] H2] H3] H4].
    apply Bool.eqb_prop in H1, H2, H3, H4. destruct a as [ea ? ? ? ?], b as [eb ? ? ? ?]. cbn in *. subst.
    destruct ea as [x|], eb as [y|]; try discriminate; [apply kentry_eqb_eq in H0; now subst|reflexivity].
  - intros <-. unfold kentry_eqb. rewrite !Bool.eqb_reflx. destruct (f_entry a); [|reflexivity].
    now rewrite !Bool.eqb_reflx.
Qed.
Definition fmem (s : fstate) (l : list fstate) : bool := existsb (feqb s) l.
Fixpoint fdedup (l : list fstate) : list fstate :=
  match l with [] => [] | x :: r => if fmem x r then fdedup r else x :: fdedup r end.

(* the per-id states reachable from an empty store, by breadth-first closure under all operations *)
Fixpoint bfs (fuel : nat) (c : kcfg) (seen frontier : list fstate) : list fstate :=
  match fuel with
  | O => seen
  | S n =>
      let next := flat_map (fun s => map (fstep c s) all_pops) frontier in
      let new := fdedup (filter (fun s => negb (fmem s seen)) next) in
      match new with [] => seen | _ => bfs n c (seen ++ new) new end
  end.
Definition reach (c : kcfg) : list fstate :=
  bfs 64 c [fstate0 true; fstate0 false] [fstate0 true; fstate0 false].

(* checked by computation, per configuration *)
Definition cfg_ok_on (c : kcfg) (R : list fstate) : bool :=
  fmem (fstate0 true) R && fmem (fstate0 false) R &&
  forallb (fun s => forallb (fun o => fmem (fstep c s o) R) all_pops) R &&
  forallb (fun s => Bool.eqb (fenum c s) (f_live s)) R.

Lemma fmem_In s l : fmem s l = true <-> In s l.
Proof. apply existsb_eqb_In, feqb_eq. Qed.

Lemma all_pops_all o : In o all_pops.
Proof. destruct o; cbn; tauto. Qed.

(* R holds both initial states, is closed under every operation, and enumerates what is stored *)
Lemma cfg_ok_on_spec c R :
  cfg_ok_on c R = true ->
  (forall t, In (fstate0 t) R) /\ (forall s o, In s R -> In (fstep c s o) R) /\
  (forall s, In s R -> fenum c s = f_live s).
Proof.
  unfold cfg_ok_on. intros H.
  apply andb_prop in H as [H Hen]. apply andb_prop in H as [H Hcl]. apply andb_prop in H as [Ht Hf].
  rewrite forallb_forall in Hcl, Hen. apply fmem_In in Ht, Hf. repeat split.
  - now intros [].
  - intros s o Hs. specialize (Hcl s Hs). rewrite forallb_forall in Hcl. apply fmem_In, Hcl, all_pops_all.
  - intros s Hs. now apply Bool.eqb_prop, Hen.
Qed.

(* every operation acts on each id separately *)
Lemma krun_proj c ops : forall s id,
  krun c s ops id = fold_left (fstep c) (map (fun o => proj o id) ops) (s id).
Proof.
  induction ops as [|o r IH]; intros s id; [reflexivity|].
  unfold krun in *. cbn [fold_left map]. now rewrite IH.
Qed.

Lemma enum_reachable_on c R :
  cfg_ok_on c R = true ->
  forall trained0 ops id, enumerated c (krun c (kstate0 trained0) ops) id = stored (krun c (kstate0 trained0) ops) id.
Proof.
  intros Hok trained0 ops id. apply cfg_ok_on_spec in Hok as (H0 & Hcl & Hen).
  unfold enumerated, stored. rewrite krun_proj. apply Hen.
  generalize (H0 trained0 : In (kstate0 trained0 id) R). generalize (kstate0 trained0 id).
  induction (map (fun o => proj o id) ops) as [|o r IH]; intros s Hs; cbn [fold_left]; auto.
Qed.

Lemma cfg_plain_ok : cfg_ok_on cfg_plain (reach cfg_plain) = true. Proof. vm_compute. reflexivity. Qed.
Lemma cfg_product_ok : cfg_ok_on cfg_product (reach cfg_product) = true. Proof. vm_compute. reflexivity. Qed.
(* depends on the generated bq_idfromkey_suffixes: false for the pinned IdFromKey *)
Lemma cfg_binary_ok : cfg_ok_on cfg_binary (reach cfg_binary) = true. Proof. vm_compute. reflexivity. Qed.
Lemma cfg_binary_v0_not_ok : cfg_ok_on cfg_binary_v0 (reach cfg_binary_v0) = false. Proof. vm_compute. reflexivity. Qed.
