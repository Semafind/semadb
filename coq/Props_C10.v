(* Props_C10.v -- property C10: the persisted similarity graph stays well-formed after every
   write.  The proofs are in Proofs_Vamana.v.

   Model: Model_Vamana.v (shared with C03).  [wf P g live] is the invariant of the property
   text: one graph node and one stored vector for the entry node and for every id of [live]
   (= node ids of the live points carrying the vector field) and for nothing else; every edge
   leads to an existing node other than its source; out-degree <= degree bound except at the
   entry node; the recorded maximum id bounds every id but the entry node's.  [wf_b] is its
   boolean form -- the clauses 141..145 of Model_C10.wf_code, which the replay evaluates on
   the buckets dumped from the real shard after every batch.

   All theorems hold for EVERY distance function d (no metric axioms are needed), every
   alpha, every degree bound R >= 1 and search size L >= 1 (validation: 32..64, 25..75),
   every query vector, every batch and history whose ids are neither 0 nor the entry id
   (the code rejects those; node ids come from the allocator, >= 2: the c10_alloc theorems).
   The NumCPU-1 insert workers of a batch are modelled as one sequential order of single
   inserts (see Model_Vamana.v); product-quantiser training is outside the model. *)
From Coq Require Import List NArith ZArith QArith Bool.
From Semadb Require Import Model_Vamana Proofs_Vamana.
Import ListNotations.

(* the boolean checker decides the invariant *)
Theorem c10_wf_b_correct : forall vec (P : params) (g : graph vec) (live : list N),
  wf_b P g live = true <-> wf P g live.
Proof. exact wf_b_wf. Qed.
Print Assumptions c10_wf_b_correct.

(* On a well-formed graph greedySearch never hits a missing node, a missing vector or runs
   out of fuel (fuel = stored vectors + 1), whatever the query, limit <= search size and
   pre-filter (members without a vector, unknown ids, the entry id ... anything). *)
Theorem c10_search_never_fails : forall vec (d : vec -> vec -> Q) (P : params) (g : graph vec) live
    (q : vec) (k Lq : nat) (flt : option (list N)),
  wf P g live -> (k <= Lq)%nat ->
  exists rs vis, greedy_search d g q k Lq flt = Ok (rs, vis).
Proof.
  intros vec d P g live q k Lq flt Hw Hk.
  destruct (greedy_search_ok vec d g _ (wf_closed vec P g live Hw) q k Lq flt Hk) as [rs [vis [E _]]]; eauto.
  intros _. exact (wf_seed vec P g live Hw).
Qed.
Print Assumptions c10_search_never_fails.

(* insertSinglePoint of a point on a well-formed graph (after the classification raised
   the maximum id) takes no error branch and yields a well-formed graph with the id added.
   Freshness of the id is not even needed. *)
Theorem c10_insert_preserves_wf : forall vec (d : vec -> vec -> Q) (P : params),
  (1 <= pR P)%nat -> (1 <= pL P)%nat ->
  forall (g : graph vec) live (id : N) (v : vec),
  wf P g live -> id <> START ->
  exists g', insert_single d P (bump g id) id v = Ok g' /\ wf P g' (id :: live).
Proof. exact insert_new_wf. Qed.
Print Assumptions c10_insert_preserves_wf.

(* insertUpdateDelete with ARBITRARY mixed changes -- inserts, vector updates, vector
   removals / deletes, whole neighbourhoods deleted at once, the same id several times --
   takes no error branch and preserves well-formedness.  [batch_live] is the id-level mirror
   of the classification (Model_Vamana.v); c10_batch_live_spec reads it for batches that
   name every id at most once. *)
Theorem c10_batch_preserves_wf : forall vec (d : vec -> vec -> Q) (P : params),
  (1 <= pR P)%nat -> (1 <= pL P)%nat ->
  forall (g : graph vec) live (changes : list (N * option vec)),
  wf P g live -> Forall (fun c => fst c <> START /\ fst c <> 0%N) changes ->
  exists g', vamana_batch d P g changes = Ok g' /\ wf P g' (batch_live live changes).
Proof. exact vamana_batch_wf. Qed.
Print Assumptions c10_batch_preserves_wf.

Theorem c10_batch_live_spec : forall vec (changes : list (N * option vec)) live,
  NoDup (map fst changes) ->
  forall x, In x (batch_live live changes) <->
            (exists v, In (x, Some v) changes) \/ (In x live /\ ~ In (x, None) changes).
Proof. exact batch_live_spec. Qed.
Print Assumptions c10_batch_live_spec.

(* delete-only batches, any number of ids, whole neighbourhoods included *)
Theorem c10_delete_preserves_wf : forall vec (d : vec -> vec -> Q) (P : params),
  (1 <= pR P)%nat -> (1 <= pL P)%nat ->
  forall (g : graph vec) live (dl : list N),
  wf P g live -> NoDup dl -> ~ In START dl -> ~ In 0%N dl ->
  exists g' live', vamana_batch d P g (map (fun i => (i, None)) dl) = Ok g' /\ wf P g' live' /\
                   forall x, In x live' <-> In x live /\ ~ In x dl.
Proof. exact delete_batch_wf. Qed.
Print Assumptions c10_delete_preserves_wf.

(* every history of batches from the empty index (the first touch creates the entry node
   with an arbitrary vector v0) runs without error and ends well-formed *)
Theorem c10_wf_reachable : forall vec (d : vec -> vec -> Q) (P : params),
  (1 <= pR P)%nat -> (1 <= pL P)%nat ->
  forall (v0 : vec) (batches : list (list (N * option vec))),
  Forall (Forall (fun c => fst c <> START /\ fst c <> 0%N)) batches ->
  exists g, run_history d P v0 empty_graph batches = Ok g /\
            (wf P g (history_live [] batches) \/ (g = empty_graph /\ history_live [] batches = [])).
Proof.
  intros vec d P HR HL v0 batches Hok.
  exact (run_history_wf vec d P HR HL v0 batches empty_graph [] (or_intror (conj eq_refl eq_refl)) Hok).
Qed.
Print Assumptions c10_wf_reachable.

(* the node id allocator: ids handed out are fresh, never 0 or the entry id; an id is never
   twice in use nor both in use and on the free list *)
Theorem c10_alloc_fresh : forall c used, idc_inv c used ->
  ~ In (fst (idc_next c)) used /\ fst (idc_next c) <> START /\ fst (idc_next c) <> 0%N /\
  idc_inv (snd (idc_next c)) (fst (idc_next c) :: used).
Proof. exact idc_next_inv. Qed.
Print Assumptions c10_alloc_fresh.

Theorem c10_alloc_free : forall c used x, idc_inv c used -> In x used ->
  idc_inv (idc_free c x) (filter (fun y => negb (N.eqb y x)) used).
Proof. exact idc_free_inv. Qed.
Print Assumptions c10_alloc_free.

Theorem c10_alloc_init : idc_inv idc_new [].
Proof. split; [constructor|]. now split. Qed.
Print Assumptions c10_alloc_init.

(* concrete graphs, evaluated *)
Definition exV := (Z * Z)%type.
Definition ex_d (a b : exV) : Q :=
  inject_Z ((fst a - fst b) * (fst a - fst b) + (snd a - snd b) * (snd a - snd b)).
Definition ex_P := mkParams 3 (12 # 10) 5.
Definition ex_ins (l : list (N * exV)) : list (N * option exV) := map (fun p => (fst p, Some (snd p))) l.
Definition ex_b1 := ex_ins [(2%N, (0, 0)%Z); (3%N, (1, 0)%Z); (4%N, (0, 1)%Z); (5%N, (5, 5)%Z); (6%N, (6, 5)%Z); (7%N, (2, 2)%Z)].
(* delete 3, update 4, insert 8, remove the vector of an unknown point 9 *)
Definition ex_b2 : list (N * option exV) := [(3%N, None); (4%N, Some (9, 9)%Z); (8%N, Some (1, 1)%Z); (9%N, None)].
(* delete the whole neighbourhood 2,5,6 and re-use the freed id 3 *)
Definition ex_b3 : list (N * option exV) := [(2%N, None); (5%N, None); (6%N, None); (3%N, Some (3, 3)%Z)].
Definition ex_run (bs : list (list (N * option exV))) := run_history ex_d ex_P (100, 100)%Z empty_graph bs.
Definition ex_check (bs : list (list (N * option exV))) : option (list (N * list N) * N * bool) :=
  match ex_run bs with
  | Ok g => Some (edges g, maxid g, wf_b ex_P g (history_live [] bs))
  | Err _ => None
  end.

Example ex_c10_build : ex_check [ex_b1] =
  Some ([(1, [5; 6; 7]); (5, [6; 7; 1]); (3, [2; 7; 1]); (7, [3; 5; 1]); (6, [5; 1]); (2, [1; 3; 4]); (4, [2; 1])]%N, 7%N, true).
Proof. vm_compute. reflexivity. Qed.
Example ex_c10_mixed : ex_check [ex_b1; ex_b2] =
  Some ([(1, [4]); (6, [5; 1; 4]); (4, [6; 1]); (2, [8; 1]); (8, [7; 2; 1]); (7, [8; 5; 1]); (5, [6; 7; 1])]%N, 8%N, true).
Proof. vm_compute. reflexivity. Qed.
Example ex_c10_neighbourhood : ex_check [ex_b1; ex_b2; ex_b3] =
  Some ([(8, [7; 1]); (4, [1]); (3, [7; 1]); (1, [4; 3]); (7, [8; 3; 1])]%N, 8%N, true).
Proof. vm_compute. reflexivity. Qed.
Example ex_c10_hyps : Forall (Forall (fun c : N * option exV => fst c <> START /\ fst c <> 0%N)) [ex_b1; ex_b2; ex_b3].
Proof. repeat constructor; simpl; discriminate. Qed.
(* the checker rejects a dangling edge, a self loop, an over-full node, a stale maximum id; the degree bound
   does not apply to the entry node *)
Example ex_c10_wf_b_rejects :
  map (fun g => wf_b ex_P g [2%N]) [
    mkGraph [(1, [2]); (2, [3])]%N [(1%N, (0, 0)%Z); (2%N, (1, 1)%Z)] 2;
    mkGraph [(1, [2]); (2, [2])]%N [(1%N, (0, 0)%Z); (2%N, (1, 1)%Z)] 2;
    mkGraph [(1, [2]); (2, [1; 1; 1; 1])]%N [(1%N, (0, 0)%Z); (2%N, (1, 1)%Z)] 2;
    mkGraph [(1, [2]); (2, [1])]%N [(1%N, (0, 0)%Z); (2%N, (1, 1)%Z)] 1;
    mkGraph [(1, [2; 2; 2; 2]); (2, [1])]%N [(1%N, (0, 0)%Z); (2%N, (1, 1)%Z)] 2 ] = [false; false; false; false; true].
Proof. vm_compute. reflexivity. Qed.
Example ex_c10_alloc : fst (idc_next idc_new) = 2%N /\
  fst (idc_next (idc_free (snd (idc_next (snd (idc_next idc_new)))) 2)) = 2%N.
Proof. vm_compute. split; reflexivity. Qed.

(* Finding, reproduced on the real shard.  When one batch names the same id twice -- Shard.UpdatePoints
   does not reject a request that lists a point twice -- the classification sees the vector store
   before any update of the batch is applied: "set the vector, then remove it" is classified
   update + delete, the node is deleted and then RE-INSERTED with the first vector.  The graph
   stays well-formed (c10_batch_preserves_wf covers such batches), but it keeps a node and a
   vector for a point whose vector field was removed last: *)
Definition ex_dup : list (N * option exV) := [(5%N, Some (7, 7)%Z); (5%N, None)].
Theorem c10_same_id_twice_refuted :
  exists g', vamana_batch ex_d ex_P
               (match ex_run [ex_b1] with Ok g => g | Err _ => empty_graph end) ex_dup = Ok g' /\
             lookup 5%N (vecs g') = Some (7, 7)%Z /\ In 5%N (batch_live [7; 6; 5; 4; 3; 2]%N ex_dup).
Proof. eexists. split; [vm_compute; reflexivity|]. split; [vm_compute; reflexivity|]. vm_compute. left. reflexivity. Qed.
Print Assumptions c10_same_id_twice_refuted.
