(* Props_C05.v -- property C05: text search matches, ranks and limits by tf-idf
   over the current corpus.  Statements, each derived in a few lines from the lemmas of Proofs_C05.v.

   M  = Model_C05M.v (processAnalysedDoc / flush / Search of shard/index/text/text.go),
   S  = Model_C05.v  (corpus, text_matches, freq, doc_freq, score_ref, text_code: the
        definitions the running check Run_C05.v judges the real answers with).

   All theorems are quantified over EVERY history of batches (a change = the new
   token list of an id; [] = field removed / point deleted / text analyses to
   nothing; an id may be blanked and filled again), every query term list (repeated
   terms, no terms), both operators, every pre-filter, every limit, every score
   function and every sorting function that returns a sorted permutation.
   Outside the theorems (validated by the run, see lib/pp/C05.py): the analyser,
   log10 and float32 rounding, and that the ids of one batch are distinct (the
   code analyses the documents of a batch concurrently; c05_batch_order_irrelevant
   shows the order inside such a batch cannot matter). *)
From Coq Require Import List NArith ZArith QArith Qabs Bool Permutation Sorted.
From Semadb Require Import Bytes Value Obs Dyadic Model_C01 Model_C02 Model_C04 Model_C05 Model_C05M Proofs_C05.
Import ListNotations.
Open Scope N_scope.

(* After ANY history the state of the index is the one derived
   from the current corpus c (the documents whose LAST change has tokens):
   posting sets = { id | t in tokens(id) }, duplicate free, their cardinality is
   the document frequency, no empty posting set is stored, document records =
   frequency table and length of exactly the documents of c, numDocs = |c|. *)
Theorem c05_index_inv : forall (h : list batch_c) (c : list tdoc),
  corpus_rep c (cur_tokens h) ->
  let st := run_hist h in
  (forall t id, In id (post_get t (ti_post st)) <-> exists d, In d c /\ td_id d = id /\ In t (td_tokens d)) /\
  (forall t, NoDup (post_get t (ti_post st))) /\
  (forall t, N.of_nat (length (post_get t (ti_post st))) = doc_freq t c) /\
  (forall t s, In (t, s) (ti_post st) -> s <> []) /\
  NoDup (map fst (ti_post st)) /\
  (forall id, al_get id (ti_docs st) =
              match find_doc id c with
              | Some d => Some (count_terms (td_tokens d), N.of_nat (length (td_tokens d)))
              | None => None
              end) /\
  NoDup (map fst (ti_docs st)) /\
  ti_num st = N.of_nat (length c).
Proof.
  intros h c HR st. pose proof (run_hist_inv h) as HI. fold st in HI.
  split; [intros t id; apply (post_members st _ c HI HR)|].
  split; [apply (inv_nd _ _ HI)|].
  split; [intros t; apply (post_card st _ c HI HR)|].
  split; [apply run_hist_no_empty|].
  split; [apply (inv_pk _ _ HI)|].
  split; [intros id; apply (docs_derived st _ c HI HR)|].
  split; [apply (inv_dk _ _ HI)|apply (num_derived st _ c HI HR)].
Qed.
Print Assumptions c05_index_inv.

(* the frequency table built by `freq[t.Term]++` is Model_C05.freq *)
Theorem c05_freq_table : forall toks t,
  tab_get t (count_terms toks) = freq t toks /\
  al_has t (count_terms toks) = mem_bytes t toks /\
  NoDup (map fst (count_terms toks)).
Proof. intros toks t. exact (conj (count_terms_freq toks t) (conj (count_terms_has toks t) (count_terms_keys toks))). Qed.
Print Assumptions c05_freq_table.

(* the corpus of a history: cur_tokens is the last change of every id (nothing at the
   start; after a batch the batch's last entry for the id, else as before), and a corpus
   representing it always exists *)
Theorem c05_corpus_of_history : forall h,
  corpus_rep (corpus_of_hist h) (cur_tokens h) /\
  (forall id, cur_tokens [] id = []) /\
  (forall b id, cur_tokens (h ++ [b]) id =
                match al_get id (rev b) with Some toks => toks | None => cur_tokens h id end).
Proof. intros h. exact (conj (corpus_of_hist_rep h) (conj (fun _ => eq_refl) (cur_tokens_snoc h))). Qed.
Print Assumptions c05_corpus_of_history.

(* the corpus Run_C05.v derives from the live store (Model_C05.corpus) represents the
   token function of the live store: the spec the running check uses is the one the
   theorems below are about, provided the changes fed to the index were the analysed
   texts of the stored documents (dispatch.go, C01) *)
Theorem c05_spec_corpus : forall path tk live c,
  NoDup (map fst live) -> corpus path tk live = Some c -> corpus_rep c (live_tokens path tk live).
Proof. exact corpus_live_rep. Qed.
Print Assumptions c05_spec_corpus.

(* the order in which the documents of one batch reach processAnalysedDoc is
   irrelevant when the ids of the batch are distinct: same corpus, hence (by
   c05_index_inv) the same lookups, match sets and components *)
Theorem c05_batch_order_irrelevant : forall h b b' c,
  Permutation b b' -> NoDup (map fst b) ->
  corpus_rep c (cur_tokens (h ++ [b])) -> corpus_rep c (cur_tokens (h ++ [b'])).
Proof.
  intros h b b' c P Hnd. apply corpus_rep_ext. intros id. rewrite !cur_tokens_snoc.
  rewrite (al_get_perm id (rev b) (rev b')); [reflexivity|now rewrite <- !Permutation_rev|].
  rewrite map_rev. now apply NoDup_rev.
Qed.
Print Assumptions c05_batch_order_irrelevant.

(* Search before the cut returns exactly the documents of the
   corpus that Model_C05.text_matches accepts for the DISTINCT query terms,
   intersected with the pre-filter -- the very list Run_C05.judge_query builds
   ([allowed] = the filter answer, or every live id when there is no filter). *)
Theorem c05_match_exact : forall h c op terms filt allowed,
  corpus_rep c (cur_tokens h) -> allowed_ok filt allowed c ->
  NoDup (matchM op terms filt (run_hist h)) /\
  Permutation (matchM op terms filt (run_hist h))
    (map td_id (filter (fun d => text_matches op (dedup_b terms) d && mem_bytes (td_id d) allowed) c)).
Proof. intros h c op terms filt allowed. exact (match_exact _ _ c op terms filt allowed (run_hist_inv h)). Qed.
Print Assumptions c05_match_exact.

(* The integers handed to the scoring formula for a document d of
   the corpus are (frequency of t in d, length of d, corpus size, document
   frequency of t), one tuple per distinct query term; the formula applied to
   them is Model_C05.score_ref. *)
Theorem c05_components : forall h c uterms d,
  corpus_rep c (cur_tokens h) -> In d c ->
  comps_of (run_hist h) uterms (td_id d) =
  Some (map (fun t => (freq t (td_tokens d), N.of_nat (length (td_tokens d)),
                       N.of_nat (length c), doc_freq t c)) uterms).
Proof. intros h c uterms d. exact (components _ _ c uterms d (run_hist_inv h)). Qed.
Print Assumptions c05_components.

Theorem c05_score_from_components : forall h c uterms logs d cs,
  corpus_rep c (cur_tokens h) -> In d c ->
  comps_of (run_hist h) uterms (td_id d) = Some cs ->
  score_comps logs cs = score_ref uterms c logs d.
Proof.
  intros h c uterms logs d cs HR Hin H. rewrite score_ref_comps.
  pose proof (components _ _ c uterms d (run_hist_inv h) HR Hin) as E. congruence.
Qed.
Print Assumptions c05_score_from_components.

(* For EVERY score function and EVERY sort returning a sorted
   permutation (slices.SortFunc is unstable), on every state, the rows after the
   cut are a top-limit selection of the match set. *)
Theorem c05_topk : forall (score : uuid -> Q) srt op terms filt limit st,
  (forall l, Permutation (srt l) l /\ Sorted (score_ge score) (srt l)) ->
  let m := matchM op terms filt st in
  let res := snd (searchM srt op terms filt limit st) in
  length res = Nat.min (N.to_nat limit) (length m) /\
  StronglySorted (score_ge score) res /\
  (forall x, In x res -> In x m) /\
  (NoDup m -> NoDup res) /\
  (forall x y, In x m -> ~ In x res -> In y res -> (score x <= score y)%Q).
Proof.
  intros score srt op terms filt limit st Hs m res. unfold res. rewrite searchM_rows.
  apply sorted_cut; [apply Hs|]. apply Sorted_StronglySorted; [apply score_ge_trans|apply Hs].
Qed.
Print Assumptions c05_topk.

(* ... and on the state of any history, against the matching set of the SPEC; the
   returned set (rebuilt after a cut) has the same members as the rows *)
Theorem c05_search_spec : forall (score : uuid -> Q) srt h c op terms filt allowed limit,
  corpus_rep c (cur_tokens h) -> allowed_ok filt allowed c ->
  (forall l, Permutation (srt l) l /\ Sorted (score_ge score) (srt l)) ->
  let matching := map td_id (filter (fun d => text_matches op (dedup_b terms) d && mem_bytes (td_id d) allowed) c) in
  let out := searchM srt op terms filt limit (run_hist h) in
  length (snd out) = Nat.min (N.to_nat limit) (length matching) /\
  StronglySorted (score_ge score) (snd out) /\
  NoDup (snd out) /\
  (forall x, In x (snd out) -> In x matching) /\
  (forall x y, In x matching -> ~ In x (snd out) -> In y (snd out) -> (score x <= score y)%Q) /\
  (forall x, In x (fst out) <-> In x (snd out)).
Proof.
  intros score srt h c op terms filt allowed limit HR HA Hs matching out.
  assert (Hp : forall l, Permutation (srt l) l) by apply Hs.
  destruct (match_exact _ _ c op terms filt allowed (run_hist_inv h) HR HA) as [Hnd HP].
  destruct (sorted_cut (score_ge score) matching _ (N.to_nat limit) (perm_trans (Hp _) HP)
             (Sorted_StronglySorted (score_ge_trans score) (proj2 (Hs _))))
    as (T1 & T2 & T3 & T4 & T5).
  rewrite <- (searchM_rows srt op terms filt limit (run_hist h)) in *.
  repeat split; auto; [apply T4, (Permutation_NoDup HP Hnd)|apply searchM_set..]; exact Hp.
Qed.
Print Assumptions c05_search_spec.

(* Code 0 of the checker used by the run means the relational
   specification: distinct ids; every row is a candidate whose reported finite
   score is within 1e-4 (relative, absolute below 1) of the reference tf-idf;
   count = min(limit, candidates); non-increasing reported scores; every
   candidate left out scores at most 1e-4 (1 + |x|) above every reported score
   x; hybrid = weight * score within 1e-6; no distance. *)
Theorem c05_checker_sound : forall limit w cands rows,
  text_code limit w cands rows = 0 -> text_rows_spec limit w cands rows.
Proof. exact text_code_sound. Qed.
Print Assumptions c05_checker_sound.

(* A query that analyses to no term matches nothing, for both
   operators (FastAnd() and FastOr() of no sets are empty), on every state, and
   so says the spec. *)
Theorem c05_zero_terms : forall srt op filt limit st,
  (forall l, Permutation (srt l) l) ->
  matchM op [] filt st = [] /\ searchM srt op [] filt limit st = ([], []) /\
  (forall d, text_matches op [] d = false).
Proof.
  intros srt op filt limit st Hp. split; [apply matchM_zero_terms|]. split; [|reflexivity].
  unfold searchM. rewrite matchM_zero_terms, (Permutation_nil (Permutation_sym (Hp []))). now destruct limit.
Qed.
Print Assumptions c05_zero_terms.

(* a history that inserts (doc 3 without text), rewrites 1 and fills 3, blanks 2,
   then re-adds 2, deletes 1 and inserts 4; terms 10..13 *)
Definition ex_hist : list batch_c :=
  [ [([1], [[10];[11];[10]]); ([2], [[11];[12]]); ([3], [])];
    [([1], [[12]]); ([3], [[10];[10]])];
    [([2], [])];
    [([2], [[10];[13]]); ([1], []); ([4], [[13]])] ].
Definition ex_corpus : list tdoc := [mkTdoc [3] [[10];[10]]; mkTdoc [2] [[10];[13]]; mkTdoc [4] [[13]]].

Example ex_run : run_hist ex_hist =
  mkTI [([10], [[2]; [3]]); ([13], [[4]; [2]])]
       [([3], ([([10], 2)], 2)); ([2], ([([10], 1); ([13], 1)], 2)); ([4], ([([13], 1)], 1))] 3.
Proof. vm_compute. reflexivity. Qed.
Example ex_run_blanked : run_hist (firstn 3 ex_hist) =
  mkTI [([10], [[3]]); ([12], [[1]])] [([1], ([([12], 1)], 1)); ([3], ([([10], 2)], 2))] 2.
Proof. vm_compute. reflexivity. Qed.
(* the hypothesis of c05_index_inv / c05_match_exact / c05_components is satisfiable *)
Example ex_corpus_rep : corpus_rep ex_corpus (cur_tokens ex_hist).
Proof. exact (corpus_of_hist_rep ex_hist). Qed.
Example ex_allowed_none : allowed_ok None [[1];[2];[3];[4]] ex_corpus.
Proof. intros d [H|[H|[H|[]]]]; subst; reflexivity. Qed.
Example ex_match_all : matchM OP_ALL [[10];[13];[10]] None (run_hist ex_hist) = [[2]].
Proof. vm_compute. reflexivity. Qed.
Example ex_match_any_filtered : matchM OP_ANY [[10];[13];[10]] (Some [[3];[4];[9]]) (run_hist ex_hist) = [[4]; [3]].
Proof. vm_compute. reflexivity. Qed.
Example ex_components : comps_of (run_hist ex_hist) [[10];[13]] [3] = Some [(2, 2, 3, 2); (0, 2, 3, 2)].
Proof. vm_compute. reflexivity. Qed.
(* the hypothesis of c05_topk / c05_search_spec is satisfiable: insertion sort *)
Example ex_sort_exists : forall score : uuid -> Q,
  forall l, Permutation (isort_desc score l) l /\ Sorted (score_ge score) (isort_desc score l).
Proof. exact isort_desc_ok. Qed.
Example ex_search_cut :
  searchM (isort_desc (fun id => match id with [3] => (3#1)%Q | [2] => (2#1)%Q | _ => (1#1)%Q end))
          OP_ANY [[10];[13]] None 2 (run_hist ex_hist) = ([[2]; [3]], [[3]; [2]]).
Proof. vm_compute. reflexivity. Qed.
(* the checker accepts: one row, score 0.5 (float32 3F000000), no weight;
   limit 1 with weight 2.0: hybrid 1.0 (3F800000), the candidate scoring 1/4 is left out *)
Example ex_checker_ok : text_code 5 None [([1], 1#2)] [mkRow [1] None None (Some 1056964608) 1056964608] = 0.
Proof. vm_compute. reflexivity. Qed.
Example ex_checker_cut : text_code 1 (Some 1073741824) [([1], 1#2); ([2], 1#4)]
                                   [mkRow [1] None None (Some 1056964608) 1065353216] = 0.
Proof. vm_compute. reflexivity. Qed.
(* ... and rejects leaving out the better candidate (code 7) *)
Example ex_checker_rejects : text_code 1 None [([1], 1#4); ([2], 1#2)]
                                       [mkRow [1] None None (Some 1048576000) 1048576000] = 7.
Proof. vm_compute. reflexivity. Qed.
