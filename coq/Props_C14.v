(* Props_C14.v -- property C14: start-up rebalancing moves every record and
   shard to its owner without loss.

   Model_C14.v says what [send_file], [sync_all] and the faults mirror in the
   code; [fixed = false] is the pinned receiver, which always appends,
   [fixed = true] the repaired one.  [reach fixed st0 st]: st is reached from
   st0 by ANY sequence of single file transfers and record-group transfers of
   any nodes with any faults (every interleaving of the phases of all nodes,
   any number of runs).  All statements hold for every element type A of the
   contents, every checksum type H and function [hash], every chunk size >= 1,
   every routing [owner_r] / [owner_f].  Hypotheses on the initial placement
   st0: [good st0] = the copies of one path (one key) held by several nodes
   are equal, and no file is empty (bbolt files never are; see
   c14_empty_file_never_moves). *)
From Coq Require Import List NArith Bool Arith Lia.
From Semadb Require Import Bytes Model_C13 Model_C14 Proofs_C14.
Import ListNotations.

(* the chunks sent for a file: their concatenation is the file, every data chunk is
   non-empty and at most [chunk] long, and the number of RPCs is ceil(len/chunk) + 1
   (the terminal empty chunk); len = 0 gives ONE RPC with index 0 *)
Theorem c14_chunking : forall (A : Type) (chunk : nat) (f : list A), (1 <= chunk)%nat ->
  concat (rpc_chunks chunk f) = f /\
  length (rpc_chunks chunk f) = S (ceil_div (length f) chunk) /\
  (exists ds, rpc_chunks chunk f = ds ++ [[]] /\
              Forall (fun c => c <> [] /\ (length c <= chunk)%nat) ds /\ (f <> [] -> ds <> [])).
Proof. intros A chunk f Hc. exact (rpc_chunks_spec chunk Hc f). Qed.
Print Assumptions c14_chunking.

Theorem c14_ceil_div : forall a b, (1 <= b)%nat -> (b * ceil_div a b < a + b /\ a <= b * ceil_div a b)%nat.
Proof.
  intros a b Hb. unfold ceil_div.
  pose proof (Nat.div_mod (a + b - 1) b ltac:(lia)) as E.
  pose proof (Nat.mod_upper_bound (a + b - 1) b ltac:(lia)) as M.
  split; nia.
Qed.
Print Assumptions c14_ceil_div.

(* no loss: in EVERY reachable state every record and every shard file of the initial
   placement exists, byte-identical, on at least one node.  With the repaired receiver
   this needs nothing about the checksum; with the pinned (appending) receiver it needs
   that no other content has the checksum of an original file *)
Theorem c14_no_loss : forall (A H : Type) (H_dec : forall a b : H, {a = b} + {a <> b}) (hash : list A -> H) (h0 : H)
    (chunk : nat) (owner_r : key -> node) (owner_f : path -> node), (1 <= chunk)%nat ->
  forall (fixed : bool) (st0 st : state A),
    good st0 -> fixed = true \/ collision_free hash st0 ->
    reach H_dec hash h0 chunk owner_r owner_f fixed st0 st ->
    no_loss st0 st.
Proof. intros until st. intros G C R. eapply no_loss_of_inv, reach_inv; eassumption. Qed.
Print Assumptions c14_no_loss.

(* every run of Sync on any nodes in any order with any fault plan, every schedule of single
   phases, and every sequence of such runs is covered by [reach] *)
Theorem c14_reach_sync : forall (A H : Type) (H_dec : forall a b : H, {a = b} + {a <> b}) (hash : list A -> H) (h0 : H)
    (chunk : nat) (owner_r : key -> node) (owner_f : path -> node) (fixed : bool),
  (forall plan (st : state A),
     reach H_dec hash h0 chunk owner_r owner_f fixed st (fst (sync_all H_dec hash h0 chunk owner_r owner_f fixed plan st))) /\
  (forall sched (st : state A),
     reach H_dec hash h0 chunk owner_r owner_f fixed st (run_phases H_dec hash h0 chunk owner_r owner_f fixed sched st)) /\
  (forall a b c : state A, reach H_dec hash h0 chunk owner_r owner_f fixed a b ->
     reach H_dec hash h0 chunk owner_r owner_f fixed b c -> reach H_dec hash h0 chunk owner_r owner_f fixed a c).
Proof. intros. split; [|split]; [apply sync_all_reach|apply run_phases_reach|apply reach_trans]. Qed.
Print Assumptions c14_reach_sync.

(* the hypothesis on the checksum is needed for the pinned receiver: with a constant checksum
   a transfer interrupted at chunk 1 and then repeated removes the source although the
   destination holds partial ++ full *)
Theorem c14_hash_collision_refuted :
  good ex_stc /\ file ex_stc ex_a ex_p1 = Some [1; 2]%N /\
  reach unit_dec hash_c tt 1 (fun _ => ex_b) (fun _ => ex_b) false ex_stc ex_c2 /\
  file ex_c1 ex_b ex_p1 = Some [1]%N /\
  file ex_c2 ex_b ex_p1 = Some [1; 1; 2]%N /\ (forall n, file ex_c2 n ex_p1 <> Some [1; 2]%N).
Proof. exact ex_collision. Qed.
Print Assumptions c14_hash_collision_refuted.

(* convergence: a fault-free Sync of all nodes, in ANY order, returns nil on every node and
   puts every item exactly on its owner, byte-identical, and nothing anywhere else.
   Unconditional for the repaired receiver; for the pinned one under the hypothesis that
   every path is on one node only (so that no stale copy pre-exists at a destination) *)
Theorem c14_converges : forall (A H : Type) (H_dec : forall a b : H, {a = b} + {a <> b}) (hash : list A -> H) (h0 : H)
    (chunk : nat) (owner_r : key -> node) (owner_f : path -> node), (1 <= chunk)%nat ->
  forall (fixed : bool) (st0 : state A) (order : list node),
    good st0 -> fixed = true \/ once_files st0 -> covers order st0 ->
    converged owner_r owner_f st0 (fst (sync_all H_dec hash h0 chunk owner_r owner_f fixed (fault_free order) st0)) /\
    snd (sync_all H_dec hash h0 chunk owner_r owner_f fixed (fault_free order) st0) = map (fun _ => true) order.
Proof. intros. apply sync_converge; auto using inv_refl. Qed.
Print Assumptions c14_converges.

(* the same for the two phases of the nodes in any interleaving (every node that holds
   records runs its record phase at least once, likewise for shards) *)
Theorem c14_converges_any_phase_order : forall (A H : Type) (H_dec : forall a b : H, {a = b} + {a <> b})
    (hash : list A -> H) (h0 : H) (chunk : nat) (owner_r : key -> node) (owner_f : path -> node), (1 <= chunk)%nat ->
  forall (fixed : bool) (st0 : state A) (sched : list phase),
    good st0 -> fixed = true \/ once_files st0 -> Forall phase_ff sched -> covers_phases sched st0 ->
    converged owner_r owner_f st0 (run_phases H_dec hash h0 chunk owner_r owner_f fixed sched st0).
Proof. intros. apply phases_converge; auto using inv_refl. Qed.
Print Assumptions c14_converges_any_phase_order.

(* resume (repaired receiver): after ANY interrupted history -- faults at any chunk of any
   transfer, between the phases, between a record transfer and the local delete, any
   number of partial runs -- a later fault-free Sync of the nodes converges *)
Theorem c14_resume : forall (A H : Type) (H_dec : forall a b : H, {a = b} + {a <> b}) (hash : list A -> H) (h0 : H)
    (chunk : nat) (owner_r : key -> node) (owner_f : path -> node), (1 <= chunk)%nat ->
  forall (st0 st : state A) (order : list node),
    good st0 -> reach H_dec hash h0 chunk owner_r owner_f true st0 st -> covers order st ->
    converged owner_r owner_f st0 (fst (sync_all H_dec hash h0 chunk owner_r owner_f true (fault_free order) st)) /\
    snd (sync_all H_dec hash h0 chunk owner_r owner_f true (fault_free order) st) = map (fun _ => true) order.
Proof. intros. apply sync_converge; auto; [eapply reach_inv; eauto|left; reflexivity]. Qed.
Print Assumptions c14_resume.

(* resume is FALSE for the pinned receiver (finding F8, repaired by 0e52263): a transfer
   interrupted after k >= 1 chunks leaves the non-empty partial file c; every later
   fault-free attempt appends the whole file again, its checksum never matches, the
   attempt fails, the source keeps the file and the owner never gets it *)
Theorem c14_retry_append_refuted : forall (A H : Type) (H_dec : forall a b : H, {a = b} + {a <> b}) (hash : list A -> H)
    (h0 : H) (chunk : nat), (1 <= chunk)%nat ->
  forall src dst p (st : state A) f k,
    src <> dst -> file st src p = Some f -> f <> [] -> file st dst p = None ->
    (1 <= k < length (rpc_chunks chunk f))%nat -> (forall g, hash g = hash f -> g = f) ->
    let st1 := fst (send_file H_dec hash h0 chunk false (Some k) src dst p st) in
    let c := concat (firstn k (rpc_chunks chunk f)) in
    c <> [] /\
    forall n, file (retries H_dec hash h0 chunk false n src dst p st1) src p = Some f /\
              (exists g, file (retries H_dec hash h0 chunk false n src dst p st1) dst p = Some (c ++ g) /\
                         length g = (n * length f)%nat) /\
              snd (send_file H_dec hash h0 chunk false None src dst p
                     (retries H_dec hash h0 chunk false n src dst p st1)) = false.
Proof.
  intros A H H_dec hash h0 chunk Hc src dst p st f k Hsd Ef Hf Ed Hk Hinj st1 c.
  destruct (interrupted_partial H_dec hash h0 chunk Hc false src dst p st f k Ef Hf Ed Hk) as [E Hne].
  subst st1 c. rewrite E. split; [exact Hne|]. apply retries_append; auto; cbn [fst]; fsimp.
Qed.
Print Assumptions c14_retry_append_refuted.

(* a source file is removed only after the destination confirmed a complete copy: whenever
   one transfer (any fault, either receiver) removes the source file, it returned nil and
   the destination file has the checksum of the source file at that moment -- hence IS the
   source file when no other content has that checksum; with the repaired receiver it is
   the source file whatever the checksum function *)
Theorem c14_source_removed_only_after_verified : forall (A H : Type) (H_dec : forall a b : H, {a = b} + {a <> b})
    (hash : list A -> H) (h0 : H) (chunk : nat), (1 <= chunk)%nat ->
  forall fixed fa src dst p (st : state A) f,
    src <> dst -> file st src p = Some f -> f <> [] ->
    file (fst (send_file H_dec hash h0 chunk fixed fa src dst p st)) src p = None ->
    snd (send_file H_dec hash h0 chunk fixed fa src dst p st) = true /\
    exists c, file (fst (send_file H_dec hash h0 chunk fixed fa src dst p st)) dst p = Some c /\ hash c = hash f /\
              ((forall g, hash g = hash f -> g = f) -> c = f).
Proof.
  intros A H H_dec hash h0 chunk Hc fixed fa src dst p st f Hs Ef Hne Hrm.
  destruct (source_removed H_dec hash h0 chunk Hc fixed fa src dst p st f Ef Hrm) as (c & E & Hh & _).
  rewrite E. cbn [fst snd]. split; [reflexivity|]. exists c. split; [fsimp|auto].
Qed.
Print Assumptions c14_source_removed_only_after_verified.

Theorem c14_source_removed_fixed : forall (A H : Type) (H_dec : forall a b : H, {a = b} + {a <> b})
    (hash : list A -> H) (h0 : H) (chunk : nat), (1 <= chunk)%nat ->
  forall fa src dst p (st : state A) f,
    src <> dst -> file st src p = Some f ->
    file (fst (send_file H_dec hash h0 chunk true fa src dst p st)) src p = None ->
    file (fst (send_file H_dec hash h0 chunk true fa src dst p st)) dst p = Some f.
Proof.
  intros A H H_dec hash h0 chunk Hc fa src dst p st f Hs Ef Hrm.
  destruct (source_removed H_dec hash h0 chunk Hc true fa src dst p st f Ef Hrm) as (c & E & _ & Hfx).
  rewrite E, (Hfx eq_refl). cbn [fst]. fsimp.
Qed.
Print Assumptions c14_source_removed_fixed.

(* what the code does with an EMPTY shard file (outside the property: a bbolt file is never
   empty): the only RPC has chunk index 0 and no data, the receiver answers a checksum only
   for an empty chunk with index > 0, so the reply carries 0; whenever the checksum of the
   empty file is not 0 (xxhash64: 0xEF46DB3751D8E999) the sender reports a mismatch, keeps
   the file, and every Sync of that node fails *)
Theorem c14_empty_file_never_moves : forall (A H : Type) (H_dec : forall a b : H, {a = b} + {a <> b})
    (hash : list A -> H) (h0 : H) (chunk : nat) (fixed : bool) src dst p (st : state A),
  src <> dst -> file st src p = Some [] -> hash [] <> h0 ->
  snd (send_file H_dec hash h0 chunk fixed None src dst p st) = false /\
  file (fst (send_file H_dec hash h0 chunk fixed None src dst p st)) src p = Some [] /\
  length (rpc_chunks chunk (@nil A)) = 1%nat.
Proof.
  intros A H H_dec hash h0 chunk fixed src dst p st Hsd Ef Hh. unfold send_file. rewrite Ef. cbn.
  destruct (H_dec h0 (hash [])); [congruence|]. cbn. fsimp. auto.
Qed.
Print Assumptions c14_empty_file_never_moves.

From Coq Require Import String.
(* non-vacuity: concrete instances computed by the kernel.  Three servers n1 n2 n3 (routing =
   Model_C13.rv xxh64), data placed for the old list [n1; n2]: n1 holds the records u1/c1,
   u2/c1 and the files s1 (10 bytes), s2; n2 holds the record u5/c9 and the file s5.  With
   the new list s1 and s5 belong to n3, u1/c1 to n2, the rest stays. *)
Example c14_ex_hypotheses :
  good ex_st0 /\ once_files ex_st0 /\ collision_free id_hash ex_st0 /\ covers [ex_n3; ex_n1; ex_n2] ex_st0.
Proof. exact ex_good. Qed.

Definition ex_sync (fixed : bool) :=
  sync_all N.eq_dec xxh64 0%N 4 (own_r ex_servers) (own_f ex_servers) fixed.
Definition ex_where (st : state N) (p : path) := map (fun n => file st n p) ex_servers.
Definition ex_where_r (st : state N) (k : key) := map (fun n => rec_ st n k) ex_servers.

Example c14_ex_owners :
  map (own_f ex_servers) [ex_p1; ex_p2; ex_p3] = [ex_n3; ex_n1; ex_n3] /\
  map (own_r ex_servers) [str "u1/c1"%string; str "u2/c1"%string; str "u5/c9"%string] = [ex_n2; ex_n1; ex_n2] /\
  xxh64 [] = 17241709254077376921%N.
Proof. vm_compute. repeat split; reflexivity. Qed.

(* the runs below look the owners up in this table instead of hashing at every use *)
Lemma ex_sync_memo fixed plan st :
  ex_sync fixed plan st =
  sync_all N.eq_dec xxh64 0%N 4
    (memo key_dec (own_r ex_servers) [(str "u1/c1"%string, ex_n2); (str "u2/c1"%string, ex_n1); (str "u5/c9"%string, ex_n2)])
    (memo path_dec (own_f ex_servers) [(ex_p1, ex_n3); (ex_p2, ex_n1); (ex_p3, ex_n3)]) fixed plan st.
Proof. symmetry. apply sync_all_ext; apply memo_ok, c14_ex_owners. Qed.

(* chunk size 4: the 10-byte file s1 is sent as 4 + 4 + 2 + the empty chunk *)
Example c14_ex_chunks : rpc_chunks 4 ex_f1 = [[1; 2; 3; 4]; [5; 6; 7; 8]; [9; 10]; []]%N /\ rpc_chunks 4 (@nil N) = [[]].
Proof. vm_compute. split; reflexivity. Qed.

(* a fault-free start-up in the order n3, n1, n2 *)
Example c14_ex_converges :
  let r := ex_sync true (fault_free [ex_n3; ex_n1; ex_n2]) ex_st0 in
  snd r = [true; true; true] /\
  ex_where (fst r) ex_p1 = [None; None; Some ex_f1] /\ ex_where (fst r) ex_p2 = [Some ex_f2; None; None] /\
  ex_where (fst r) ex_p3 = [None; None; Some ex_f3] /\
  ex_where_r (fst r) (str "u1/c1"%string) = [None; Some [1; 1]%N; None] /\
  ex_where_r (fst r) (str "u2/c1"%string) = [Some [2; 2]%N; None; None].
Proof. rewrite ex_sync_memo. vm_compute. repeat split; reflexivity. Qed.

(* run 1: n1's transfer of s1 dies at chunk 2 (8 of 10 bytes are on n3), n2 dies between its
   phases; nothing is lost; run 2 (repaired receiver) converges *)
Definition ex_plan1 : list (node * nfault) :=
  [ (ex_n1, mkF (fun _ => RNone) (fun _ => Some 2%nat) false); (ex_n2, mkF (fun _ => RNone) (fun _ => None) true) ].
Example c14_ex_resume :
  let r1 := ex_sync true ex_plan1 ex_st0 in
  let r2 := ex_sync true (fault_free [ex_n2; ex_n1; ex_n3]) (fst r1) in
  snd r1 = [false; false] /\
  ex_where (fst r1) ex_p1 = [Some ex_f1; None; Some [1; 2; 3; 4; 5; 6; 7; 8]%N] /\
  ex_where (fst r1) ex_p3 = [None; Some ex_f3; None] /\
  ex_where_r (fst r1) (str "u1/c1"%string) = [None; Some [1; 1]%N; None] /\
  snd r2 = [true; true; true] /\
  ex_where (fst r2) ex_p1 = [None; None; Some ex_f1] /\ ex_where (fst r2) ex_p3 = [None; None; Some ex_f3].
Proof. rewrite ex_sync_memo. intros r1. rewrite ex_sync_memo. vm_compute. repeat split; reflexivity. Qed.

(* the same history on the PINNED receiver: the second run appends to the partial file, the
   checksum differs, Sync of n1 fails again, s1 stays on n1 and n3 holds 8 + 10 bytes *)
Example c14_ex_retry_append :
  let r1 := ex_sync false ex_plan1 ex_st0 in
  let r2 := ex_sync false (fault_free [ex_n2; ex_n1; ex_n3]) (fst r1) in
  let r3 := ex_sync false (fault_free [ex_n1]) (fst r2) in
  snd r2 = [true; false; true] /\
  ex_where (fst r2) ex_p1 = [Some ex_f1; None; Some (app [1; 2; 3; 4; 5; 6; 7; 8]%N ex_f1)] /\
  snd r3 = [false] /\
  ex_where (fst r3) ex_p1 = [Some ex_f1; None; Some (app [1; 2; 3; 4; 5; 6; 7; 8]%N (app ex_f1 ex_f1))].
Proof.
  rewrite ex_sync_memo. intros r1. rewrite ex_sync_memo. intros r2. rewrite ex_sync_memo.
  vm_compute. repeat split; reflexivity.
Qed.

(* every fault position of the transfer of s1 (4 RPCs): what n3 holds, whether n1 keeps the file *)
Example c14_ex_every_chunk :
  map (fun k => let st := fst (send_file N.eq_dec xxh64 0%N 4 true (Some k) ex_n1 ex_n3 ex_p1 ex_st0) in
                (file st ex_n3 ex_p1, file st ex_n1 ex_p1)) [0; 1; 2; 3; 4; 5]%nat =
  [ (None, Some ex_f1); (Some [1; 2; 3; 4]%N, Some ex_f1); (Some [1; 2; 3; 4; 5; 6; 7; 8]%N, Some ex_f1);
    (Some ex_f1, Some ex_f1); (Some ex_f1, Some ex_f1); (Some ex_f1, None) ].
Proof. vm_compute. reflexivity. Qed.

(* an empty file: the transfer fails and leaves an empty file on the destination *)
Example c14_ex_empty_file :
  let st := mk_state [(ex_n1, mkN [] [(ex_p1, @nil N)])] in
  let r := send_file N.eq_dec xxh64 0%N 4 true None ex_n1 ex_n3 ex_p1 st in
  snd r = false /\ file (fst r) ex_n1 ex_p1 = Some [] /\ file (fst r) ex_n3 ex_p1 = Some [].
Proof. vm_compute. repeat split; reflexivity. Qed.

(* Start-up order. The model delivers a hand-over to a node that accepts it; in the code that means the receiving
   node is listening. Two nodes that each hold something of the other (every server renamed, a combined add and
   remove) only finish their start-up synchronisation because every node listens BEFORE it starts to send.
   gen/gen_startup_order.py reads the order of the calls main.go makes on the node it creates off the source on
   every run; the harness brings its nodes up in the same order (harness/startnode.go, then Serve, then Sync). *)
From Semadb Require StartupOrder.
Theorem c14_node_listens_before_it_sends :
  StartupOrder.startup_order = ["NewNode"; "RegisterMetrics"; "Serve"; "Sync"]%string.
Proof. reflexivity. Qed.
Print Assumptions c14_node_listens_before_it_sends.
