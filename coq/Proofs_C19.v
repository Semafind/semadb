(* Proofs_C19.v -- lemmas for property C19: each sortable encoding is the big-endian writing of a number
   that grows with the value (an int64 moved up by 2^63, a float64 sent to its key), so that round trip
   and order come from Bytes.v; the key layouts are compared with the generated constants by computation. *)
From Coq Require Import List NArith ZArith Lia Bool Arith.
From Coq Require Import ZifyBool ZifyN ZifyNat.
From Semadb Require Import ListFacts Bytes U64 KeyLayout Model_C19.
Import ListNotations.
Open Scope N_scope.

(* obligations on the generated constants, re-checked on every build *)
Lemma layout_ok : layout_ok_b = true. Proof. vm_compute. reflexivity. Qed.
Lemma i64_mask_ok : i64_xor_mask = two63. Proof. reflexivity. Qed.
Lemma f64_norm_ok : f64_normalises_zero = true. Proof. reflexivity. Qed.
Lemma f64_masks_ok : f64_pos_mask = two63 /\ f64_neg_mask = ones64 /\
  f64_dec_test_mask = two63 /\ f64_dec_pos_mask = two63 /\ f64_dec_neg_mask = ones64.
Proof. repeat split; reflexivity. Qed.
Lemma widths_ok : u64_width = 8%nat /\ f32_width = 4%nat. Proof. split; reflexivity. Qed.
Lemma node_layout_ok : node_from_len = 10%nat /\ node_from_prefix = node_prefix /\
  node_from_suffix_pos = 9%nat /\ node_from_off = 1%nat /\ node_from_tail = 1%nat.
Proof. repeat split; reflexivity. Qed.
Lemma doc_layout_ok : doc_from_len = 9%nat /\ doc_from_prefix = doc_prefix /\ doc_id_off = 1%nat.
Proof. repeat split; reflexivity. Qed.
Lemma term_layout_ok : term_from_minlen = 2%nat /\ term_from_prefix = term_prefix /\ term_from_suffix = term_suffix.
Proof. repeat split; reflexivity. Qed.
Open Scope Z_scope.

(* flipping the sign bit of the two's-complement pattern adds 2^63 to the value *)
Lemma i64_lxor z : in_i64 z -> Z.of_N (N.lxor (i64_to_u64 z) two63) = 9223372036854775808 + z.
Proof.
  intros Hz. pose proof (i64_to_u64_Z z Hz) as E. rewrite lxor_two63 by apply i64_to_u64_bound.
  unfold in_i64, two63 in *.
  destruct (Z.ltb_spec z 0); destruct (N.ltb_spec (i64_to_u64 z) 9223372036854775808); lia.
Qed.

Lemma enc_i64_compare a b : in_i64 a -> in_i64 b ->
  lex_compare (enc_i64 a) (enc_i64 b) = Z.compare a b.
Proof.
  intros Ha Hb. unfold enc_i64. rewrite i64_mask_ok.
  rewrite be_compare by (rewrite <- two64_256; apply lxor_two63_bound, i64_to_u64_bound).
  rewrite <- N2Z.inj_compare, !i64_lxor by assumption. apply Z.add_compare_mono_l.
Qed.

Lemma dec_enc_i64 z : in_i64 z -> dec_i64 (enc_i64 z) = z.
Proof.
  intros Hz. unfold dec_i64, enc_i64. rewrite i64_mask_ok.
  rewrite unbe_be by (rewrite <- two64_256; apply lxor_two63_bound, i64_to_u64_bound).
  rewrite lxor_lxor. now apply i64_u64_roundtrip.
Qed.

Lemma enc_i64_length z : length (enc_i64 z) = 8%nat.
Proof. unfold enc_i64. apply be_length. Qed.

Open Scope N_scope.

Definition f64_keyN (b : N) : N :=
  let b1 := if f64_is_zero b then 0 else b in
  if b1 <? two63 then b1 + two63 else ones64 - b1.

Lemma f64_is_zero_iff b : f64_is_zero b = true <-> b = 0 \/ b = two63.
Proof. unfold f64_is_zero. now rewrite orb_true_iff, !N.eqb_eq. Qed.

Lemma f64_keyN_bound b : b < two64 -> f64_keyN b < two64.
Proof.
  unfold f64_keyN. intros Hb. destruct (f64_is_zero b); [reflexivity|].
  unfold two63, two64, ones64 in *. destruct (N.ltb_spec b 9223372036854775808); lia.
Qed.

Lemma enc_f64_keyN b : b < two64 -> enc_f64 b = be 8 (f64_keyN b).
Proof.
  intros Hb. unfold enc_f64, enc_f64_with. rewrite f64_norm_ok. cbn [andb].
  destruct f64_masks_ok as (-> & -> & _).
  f_equal. unfold f64_keyN, f64_ge0.
  destruct (f64_is_zero b) eqn:Z; [reflexivity|].
  destruct (N.ltb_spec b two63) as [L|G]; cbn [orb].
  - now apply lxor_two63_low.
  - destruct (N.eqb_spec b two63) as [E|_]; [|now apply lxor_ones64].
    rewrite (proj2 (f64_is_zero_iff b) (or_intror E)) in Z. discriminate.
Qed.

(* the key is the order value moved up by 2^63, one less below zero (there is no key for -0) *)
Lemma f64_keyN_Z b : b < two64 ->
  Z.of_N (f64_keyN b) = ((if f64_ord b <? 0 then 9223372036854775807 else 9223372036854775808) + f64_ord b)%Z.
Proof.
  intros Hb. unfold f64_keyN. destruct (f64_is_zero b) eqn:Z.
  - apply f64_is_zero_iff in Z. destruct Z; subst b; reflexivity.
  - assert (b <> two63) by (intros E; rewrite (proj2 (f64_is_zero_iff b) (or_intror E)) in Z; discriminate).
    unfold f64_ord, two63, two64, ones64 in *.
    destruct (N.ltb_spec b 9223372036854775808);
      [destruct (Z.ltb_spec (Z.of_N b) 0) | destruct (Z.ltb_spec (- Z.of_N (b - 9223372036854775808)) 0)]; lia.
Qed.

Lemma shifted_compare x y c :
  ((if x <? 0 then c - 1 else c) + x ?= (if y <? 0 then c - 1 else c) + y)%Z = (x ?= y)%Z.
Proof.
  destruct (Z.ltb_spec x 0); destruct (Z.ltb_spec y 0); try apply Z.add_compare_mono_l.
  - transitivity Lt; [|symmetry]; apply Z.compare_lt_iff; lia.
  - transitivity Gt; [|symmetry]; apply Z.compare_gt_iff; lia.
Qed.

Lemma enc_f64_compare a b : a < two64 -> b < two64 ->
  lex_compare (enc_f64 a) (enc_f64 b) = Z.compare (f64_ord a) (f64_ord b).
Proof.
  intros Ha Hb. rewrite !enc_f64_keyN by assumption.
  rewrite be_compare by (rewrite <- two64_256; now apply f64_keyN_bound).
  rewrite <- N2Z.inj_compare, !f64_keyN_Z by assumption.
  apply (shifted_compare _ _ 9223372036854775808).
Qed.

Lemma land_two63_test u : u < two64 -> (N.land u two63 =? 0) = (u <? two63).
Proof.
  intros Hu. destruct (N.ltb_spec u two63) as [L|G].
  - rewrite land_low_two63 by exact L. reflexivity.
  - apply N.eqb_neq. intros E.
    pose proof (N.add_nocarry_lxor u two63 E) as H.
    rewrite lxor_two63_high in H by assumption. unfold two63 in *. lia.
Qed.

(* decoding undoes the xor the encoder applied: the top bit of the key tells which *)
Lemma dec_enc_f64 b : b < two64 ->
  dec_f64 (enc_f64 b) = if f64_is_zero b then 0 else b.
Proof.
  intros Hb. rewrite enc_f64_keyN by exact Hb. unfold dec_f64.
  pose proof (f64_keyN_bound b Hb) as Hk.
  rewrite unbe_be by (now rewrite <- two64_256).
  destruct f64_masks_ok as (_ & _ & -> & -> & ->).
  rewrite land_two63_test by exact Hk.
  unfold f64_keyN in *. set (b1 := if f64_is_zero b then 0 else b) in *.
  assert (Hb1 : b1 < two64) by (unfold b1; destruct (f64_is_zero b); [reflexivity | exact Hb]).
  destruct (N.ltb_spec b1 two63) as [L|G].
  - rewrite (proj2 (N.ltb_ge _ _) (N.le_add_l _ _)). cbn [negb].
    rewrite <- lxor_two63_low by exact L. apply lxor_lxor.
  - rewrite (proj2 (N.ltb_lt _ _)) by (unfold ones64, two63 in *; lia). cbn [negb].
    rewrite <- lxor_ones64 by exact Hb1. apply lxor_lxor.
Qed.

Lemma f64_eq_norm b : f64_eq (if f64_is_zero b then 0 else b) b = true.
Proof.
  unfold f64_eq. destruct (f64_is_zero b) eqn:Z; [|apply Z.eqb_refl].
  apply f64_is_zero_iff in Z. destruct Z; subst b; reflexivity.
Qed.

Lemma f32s_roundtrip xs : Forall (fun x => x < 4294967296) xs -> f32s_of_le (f32s_le xs) = xs.
Proof. intros H. apply dec_enc_words; [apply Nat.lt_0_succ | exact H]. Qed.

Lemma edges_roundtrip xs : Forall (fun x => x < two64) xs -> edges_of_le (edges_le xs) = xs.
Proof. intros H. apply dec_enc_words; [apply Nat.lt_0_succ | exact H]. Qed.

Lemma node_key_length id s : length (node_key id s) = 10%nat.
Proof. unfold node_key. cbn [length]. rewrite app_length, le_length. reflexivity. Qed.

Lemma nth8_le id s : nth 8 (le u64_width id ++ [s]) 256 = s.
Proof. pose proof (nth_middle (le u64_width id) [] s 256) as E. now rewrite le_length in E. Qed.

(* reading a node key back with suffix s': the suffix byte is compared, then the id decoded *)
Lemma node_id_from_node_key id s s' :
  node_id_from_key (node_key id s) s' = if s =? s' then Some (unle (le u64_width id)) else None.
Proof.
  unfold node_id_from_key. rewrite node_key_length.
  destruct node_layout_ok as (-> & -> & -> & -> & ->).
  unfold node_key. cbn [Nat.eqb negb nth]. rewrite N.eqb_refl, nth8_le.
  destruct (s =? s'); [|reflexivity]. cbn [negb skipn Nat.sub].
  now rewrite firstn_app, le_length, firstn_all2, app_nil_r by (now rewrite le_length).
Qed.

Lemma node_key_roundtrip id s : id < two64 -> node_id_from_key (node_key id s) s = Some id.
Proof. intros Hid. rewrite node_id_from_node_key, N.eqb_refl. f_equal. now apply unle_le. Qed.

Lemma node_key_other_suffix id s s' : s <> s' -> node_id_from_key (node_key id s) s' = None.
Proof. intros Hs. rewrite node_id_from_node_key. apply N.eqb_neq in Hs. now rewrite Hs. Qed.

Lemma node_key_inj id s id' s' : id < two64 -> id' < two64 ->
  node_key id s = node_key id' s' -> id = id' /\ s = s'.
Proof.
  intros H1 H2 E. apply (f_equal (@tl N)) in E. cbn [node_key tl] in E.
  apply app_inj_length in E as [El Es]; [|now rewrite !le_length]. split.
  - now apply (le_inj u64_width).
  - now injection Es.
Qed.

Lemma point_key_inj u s u' s' : length u = length u' ->
  point_key u s = point_key u' s' -> u = u' /\ s = s'.
Proof.
  intros Hl E. injection E as E. apply app_inj_length in E as [-> Es]; [|exact Hl].
  split; [reflexivity | now injection Es].
Qed.

(* keys of different families differ in their first byte *)
Lemma hd_neq (a b : bytes) : hd 0 a <> hd 0 b -> a <> b.
Proof. intros H E. now rewrite E in H. Qed.

Lemma node_point_keys_disjoint id s u s' : node_key id s <> point_key u s'.
Proof. apply hd_neq. discriminate. Qed.

Lemma doc_key_roundtrip id : id < two64 -> doc_id_from_key (doc_key id) = Some id.
Proof.
  intros Hid. unfold doc_id_from_key, doc_key. cbn [length]. rewrite le_length.
  destruct doc_layout_ok as (-> & -> & ->).
  cbn [u64_width Nat.eqb negb nth]. rewrite N.eqb_refl. cbn [negb skipn].
  f_equal. now apply unle_le.
Qed.

Lemma doc_key_inj a b : a < two64 -> b < two64 -> doc_key a = doc_key b -> a = b.
Proof. intros Ha Hb E. apply (f_equal (@tl N)) in E. now apply (le_inj u64_width). Qed.

Lemma term_key_roundtrip t : term_from_key (term_key t) = Some t.
Proof.
  unfold term_from_key, term_key. destruct term_layout_ok as (-> & -> & ->).
  cbn [length]. rewrite app_length. cbn [length].
  replace (S (length t + 1) <? 2)%nat with false by (symmetry; apply Nat.ltb_ge; lia).
  cbn [nth]. rewrite N.eqb_refl. cbn [negb].
  change (term_prefix :: t ++ [term_suffix]) with ((term_prefix :: t) ++ [term_suffix]).
  rewrite last_last, N.eqb_refl. cbn [negb app tl].
  now rewrite removelast_last.
Qed.

Lemma term_key_inj a b : term_key a = term_key b -> a = b.
Proof.
  intros E. pose proof (term_key_roundtrip a) as Ha. rewrite E, term_key_roundtrip in Ha. now injection Ha.
Qed.
