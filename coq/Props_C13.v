(* Props_C13.v -- property C13: routing is a deterministic, order-independent,
   minimally disruptive function of (key, set of server names).
   The statements, each with a short derivation from the lemmas of Proofs_C13.v.

   All theorems are quantified over EVERY hash function, key, server list (of
   any size) and topK.  The only hypothesis is that the scores hash(key ++ s)
   of the servers in the list are pairwise distinct (NoDup); without it the
   statement is false (c13_collision_refuted).  "Every server owns a share of
   a large key set" is a statistical statement about xxHash: it is evaluated
   as a TEST by the harness (stats.share_test, verdict 141) and is NOT proved. *)
From Coq Require Import List NArith Bool Permutation Sorted.
From Semadb Require Import Bytes Model_C13 Proofs_C13.
Import ListNotations.
Open Scope N_scope.

(* rv (sort of the (score, server) pairs, as the Go code does) is "the first k
   servers in ascending order of hash (key ++ server)" *)
Theorem c13_rv_spec : forall hash key servers k,
  rv hash key servers k = firstn k (sort_on (fun s => hash (key ++ s)) servers)
  /\ length (rv hash key servers k) = Nat.min k (length servers).
Proof. intros. split; [exact (rv_simple hash key servers k)|exact (rv_length hash key servers k)]. Qed.
Print Assumptions c13_rv_spec.

(* order independence: every node computes the same result whatever the order
   of its server list *)
Theorem c13_perm_invariant : forall hash key s1 s2 k,
  Permutation s1 s2 -> NoDup (map (fun s => hash (key ++ s)) s1) ->
  rv hash key s1 k = rv hash key s2 k.
Proof.
  intros hash key s1 s2 k P Hnd. rewrite !rv_simple. f_equal. now apply sort_on_perm_invariant.
Qed.
Print Assumptions c13_perm_invariant.

(* ... and whatever the sorting algorithm: ANY arrangement [out] of the scored
   slice that is sorted by score (what slices.SortFunc, stable or not, returns)
   yields the result of rv.  [srt] form: any function returning a sorted
   permutation of its input. *)
Theorem c13_any_sort : forall hash key servers k (out : list (N * bytes)),
  Permutation out (decorate hash key servers) ->
  Sorted (fun a b => fst a <= fst b) out ->
  NoDup (map (fun s => hash (key ++ s)) servers) ->
  map snd (firstn k out) = rv hash key servers k.
Proof.
  intros hash key servers k out P S Hnd. unfold rv, rv_of_scored. do 2 f_equal.
  apply sort_on_unique; [exact P|exact S|]. now rewrite map_fst_decorate.
Qed.
Print Assumptions c13_any_sort.

Theorem c13_any_sort_fn : forall (srt : list (N * bytes) -> list (N * bytes)),
  (forall l, Permutation (srt l) l /\ Sorted (fun a b => fst a <= fst b) (srt l)) ->
  forall hash key s1 s2 k,
  Permutation s1 s2 -> NoDup (map (fun s => hash (key ++ s)) s1) ->
  map snd (firstn k (srt (decorate hash key s2))) = rv hash key s1 k.
Proof.
  intros srt Hsrt hash key s1 s2 k P Hnd.
  rewrite (c13_perm_invariant hash key s1 s2 k P Hnd).
  apply c13_any_sort; [exact (proj1 (Hsrt _))|exact (proj2 (Hsrt _))|].
  eapply Permutation_NoDup; [|exact Hnd]. now apply Permutation_map.
Qed.
Print Assumptions c13_any_sort_fn.

(* the owner is a server of the list with the smallest score; a non-empty list has an owner *)
Theorem c13_owner_is_argmin : forall hash key servers,
  (servers <> [] -> exists o, owner hash key servers = Some o) /\
  (forall o, owner hash key servers = Some o ->
     In o servers /\ forall s, In s servers -> hash (key ++ o) <= hash (key ++ s)).
Proof. intros. split; [exact (owner_exists hash key servers)|exact (owner_some_argmin hash key servers)]. Qed.
Print Assumptions c13_owner_is_argmin.

(* adding one server: a key either stays where it was or moves to the new server *)
Theorem c13_add_server : forall hash key servers new,
  NoDup (map (fun s => hash (key ++ s)) (new :: servers)) ->
  owner hash key (new :: servers) = Some new \/
  owner hash key (new :: servers) = owner hash key servers.
Proof. intros hash key servers new H. exact (owner_add hash key servers (new :: servers) new (Permutation_refl _) H). Qed.
Print Assumptions c13_add_server.

(* the same with the new server inserted at any position, or more generally for
   any list that is a permutation of new :: servers *)
Theorem c13_add_server_anywhere : forall hash key servers servers' new,
  Permutation servers' (new :: servers) ->
  NoDup (map (fun s => hash (key ++ s)) servers') ->
  owner hash key servers' = Some new \/ owner hash key servers' = owner hash key servers.
Proof. exact owner_add. Qed.
Print Assumptions c13_add_server_anywhere.

Theorem c13_add_server_middle : forall hash key l1 l2 new,
  NoDup (map (fun s => hash (key ++ s)) (l1 ++ new :: l2)) ->
  owner hash key (l1 ++ new :: l2) = Some new \/
  owner hash key (l1 ++ new :: l2) = owner hash key (l1 ++ l2).
Proof.
  intros hash key l1 l2 new H. apply owner_add; [|exact H].
  symmetry. apply Permutation_middle.
Qed.
Print Assumptions c13_add_server_middle.

(* removing one server: only keys owned by the removed server change owner *)
Theorem c13_remove_server : forall hash key servers r,
  NoDup (map (fun s => hash (key ++ s)) servers) ->
  owner hash key servers <> Some r ->
  owner hash key (remove bytes_eq_dec r servers) = owner hash key servers.
Proof.
  intros hash key servers r Hnd Hne. apply owner_subset.
  - intros s Hs. now apply in_remove in Hs.
  - now apply NoDup_map_remove.
  - intros o E. apply in_in_remove; [congruence|]. now apply (owner_some_argmin hash key servers).
Qed.
Print Assumptions c13_remove_server.

(* the same for any list that contains exactly the other servers (any order) *)
Theorem c13_remove_server_any : forall hash key servers servers' r,
  (forall s, In s servers' <-> In s servers /\ s <> r) ->
  NoDup (map (fun s => hash (key ++ s)) servers') ->
  owner hash key servers <> Some r ->
  owner hash key servers' = owner hash key servers.
Proof.
  intros hash key servers servers' r Hiff Hnd Hne. apply owner_subset; [|exact Hnd|].
  - intros s Hs. now apply Hiff.
  - intros o E. apply Hiff. split; [now apply (owner_some_argmin hash key servers)|now intros ->].
Qed.
Print Assumptions c13_remove_server_any.

(* every placement call site of cluster/actions.go and cluster/sync.go (the list RoutingSites.routing_sites is
   regenerated from the source on every run; the translator refuses a call site that is not
   `RendezvousHash(<id of the record at hand>, c.Servers, 1)[0]`) computes `owner`: the same server on every
   node, whatever the order of its server list *)
Theorem c13_sites_route_by_key : forall hash key s1 s2 site,
  In site RoutingSites.routing_sites ->
  Permutation s1 s2 -> NoDup (map (fun s => hash (key ++ s)) s1) ->
  site_owner site hash key s1 = site_owner site hash key s2.
Proof. intros hash key s1 s2 site _ P Hnd. unfold site_owner, owner. now rewrite (c13_perm_invariant hash key s1 s2 1 P Hnd). Qed.
Print Assumptions c13_sites_route_by_key.

(* the generated list is consistent: its length, and every file it names (actions.go, sync.go) has call sites in it *)
Theorem c13_sites_listed : length RoutingSites.routing_sites = RoutingSites.n_routing_sites /\
  (forall f, In f RoutingSites.routing_files ->
     exists fu k e, In (f, fu, k, e) RoutingSites.routing_sites).
Proof.
  split; [reflexivity|]. intros f Hf.
  assert (H : existsb (fun x => String.eqb (fst (fst (fst x))) f) RoutingSites.routing_sites = true).
  { revert f Hf. apply forallb_forall. reflexivity. }
  apply existsb_exists in H. destruct H as ([[[f1 fu] k] e] & Hin & Heq).
  apply String.eqb_eq in Heq. cbn in Heq. subst f1. now exists fu, k, e.
Qed.
Print Assumptions c13_sites_listed.

(* the distinct-score hypothesis is needed: with a constant hash two nodes that
   hold the same servers in a different order disagree *)
Theorem c13_collision_refuted :
  Permutation [[1]; [2]] [[2]; [1]] /\
  rv (fun _ => 0) [] [[1]; [2]] 1 = [[1]] /\ rv (fun _ => 0) [] [[2]; [1]] 1 = [[2]] /\
  owner (fun _ => 0) [] [[1]; [2]] <> owner (fun _ => 0) [] [[2]; [1]].
Proof. split; [apply perm_swap|]. repeat split. discriminate. Qed.
Print Assumptions c13_collision_refuted.

(* the selection checker used for verdict 101 accepts exactly one list when the
   scores are distinct: the model's result *)
Theorem c13_sel_ok_sound : forall hash key servers k obs,
  NoDup (map (fun s => hash (key ++ s)) servers) ->
  length obs = Nat.min k (length servers) ->
  sel_ok obs (decorate hash key servers) 0 = true ->
  obs = rv hash key servers k.
Proof.
  intros hash key servers k obs Hnd Hlen Hs.
  destruct (sel_ok_out obs _ 0 Hs) as (out & Hp & Hsorted & _ & Hm).
  rewrite <- (rv_min hash key servers k _ Hlen). rewrite <- Hm at 1. now apply c13_any_sort.
Qed.
Print Assumptions c13_sel_ok_sound.

(* the model hash is a 64-bit word; w64 is reduction modulo 2^64 *)
Theorem c13_xxh64_word : forall b x, xxh64 b < 2 ^ 64 /\ w64 x = x mod 2 ^ 64.
Proof. intros. split; [exact (xxh64_lt b)|exact (w64_mod x)]. Qed.
Print Assumptions c13_xxh64_word.

(* non-vacuity: the hypotheses hold for xxh64 on concrete cluster configurations *)
From Coq Require Import String.
Definition ex_servers : list bytes :=
  map str ["host-0:11001"; "host-1:11001"; "host-2:11001"; "host-3:11001"; "host-4:11001"]%string.
Definition ex_key : bytes := str "user-42".

(* published xxHash64 test vectors (seed 0) *)
Example c13_ex_xxh64 :
  xxh64 [] = 17241709254077376921 /\ xxh64 (str "a") = 15154266338359012955 /\
  xxh64 (str "Nobody inspects the spammish repetition") = 18144624926692707313.
Proof. vm_compute. repeat split; reflexivity. Qed.

(* the six hashes for ex_key and for "user-A", evaluated once; the examples then only sort these numbers *)
Lemma ex_scores :
  score xxh64 ex_key (str "host-5:11001") = 17424568581531856712 /\
  decorate xxh64 ex_key ex_servers =
    combine [15940194931352557552; 8299516796865660774; 17797279372042902952;
             1085502509461319511; 3221965189181130471] ex_servers.
Proof. vm_compute. split; reflexivity. Qed.

Lemma ex_scores_A :
  score xxh64 (str "user-A") (str "host-5:11001") = 3829020634222083559 /\
  decorate xxh64 (str "user-A") ex_servers =
    combine [6734075864164569731; 17628390822650941073; 7855879806271350371;
             15864057582360275808; 12205889674011279716] ex_servers.
Proof. vm_compute. split; reflexivity. Qed.

Example c13_ex_distinct : NoDup (map (fun s => xxh64 (ex_key ++ s)) ex_servers).
Proof.
  change (fun s => xxh64 (ex_key ++ s)) with (score xxh64 ex_key).
  rewrite <- map_fst_decorate, (proj2 ex_scores). apply nodupN_sound. reflexivity.
Qed.

Example c13_ex_perm :
  rv xxh64 ex_key (rev ex_servers) 2 = rv xxh64 ex_key ex_servers 2 /\
  rv xxh64 ex_key ex_servers 2 = [str "host-3:11001"; str "host-4:11001"].
Proof.
  split; [|unfold rv; rewrite (proj2 ex_scores); reflexivity].
  symmetry. apply c13_perm_invariant; [apply Permutation_rev|exact c13_ex_distinct].
Qed.

Example c13_ex_add_remove :
  owner xxh64 ex_key ex_servers = Some (str "host-3:11001") /\
  (* removing another server: unchanged; removing the owner: the key moves *)
  owner xxh64 ex_key (remove bytes_eq_dec (str "host-1:11001") ex_servers) = Some (str "host-3:11001") /\
  owner xxh64 ex_key (remove bytes_eq_dec (str "host-3:11001") ex_servers) = Some (str "host-4:11001") /\
  (* adding a server: user-42 stays, user-A moves to the new server *)
  owner xxh64 ex_key (str "host-5:11001" :: ex_servers) = Some (str "host-3:11001") /\
  owner xxh64 (str "user-A") ex_servers = Some (str "host-0:11001") /\
  owner xxh64 (str "user-A") (str "host-5:11001" :: ex_servers) = Some (str "host-5:11001").
Proof.
  destruct ex_scores as [S D], ex_scores_A as [SA DA]. unfold owner, rv. repeat apply conj.
  - rewrite D. reflexivity.
  - rewrite decorate_remove, D. reflexivity.
  - rewrite decorate_remove, D. reflexivity.
  - rewrite decorate_cons, S, D. reflexivity.
  - rewrite DA. reflexivity.
  - rewrite decorate_cons, SA, DA. reflexivity.
Qed.
